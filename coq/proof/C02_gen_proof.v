(* C02_gen_proof.v — the functions translated from MessageBatch.done / done_noack / failure on this run
   (gen/DoneGen.v) are the hand model of model/C02_Done.v, for every input. *)
From Coq Require Import ZArith List Bool.
From Verif Require Import C02_Done DoneGen C02_proof.
Import ListNotations.
Open Scope Z_scope.

Lemma done_py_eq base bts ls fs : DoneGen.done_py base bts ls fs = done base bts ls fs.
Proof. symmetry. apply done_aux_eq. Qed.

Lemma done_noack_py_eq fs : DoneGen.done_noack_py fs = done_noack fs.
Proof. symmetry. apply all_aux_eq. Qed.

Lemma failure_py_eq fs : DoneGen.failure_py fs = failure fs.
Proof. symmetry. apply all_aux_eq. Qed.

Lemma main_noack_failure : DoneGen.done_noack_main_py = RNone /\ DoneGen.failure_main_py = RErr.
Proof. split; reflexivity. Qed.

(* C05: the invariant of the membership model (model/Group.v) - members and generation records against the ghost clock;
   the statements of props/C05.v are read off it. *)
From Coq Require Import List Bool Arith Lia.
From Verif Require Import Group.
Import ListNotations.

Lemma lookup_update_eq {A} k (v : A) l : lookup k (update k v l) = Some v.
Proof.
  induction l as [|[k' v'] tl IH]; cbn.
  - rewrite Nat.eqb_refl. reflexivity.
  - destruct (Nat.eqb k k') eqn:E; cbn; rewrite ?Nat.eqb_refl; [reflexivity|]. rewrite E. exact IH.
Qed.

Lemma lookup_update_neq {A} k k2 (v : A) l : k2 <> k -> lookup k2 (update k v l) = lookup k2 l.
Proof.
  intros Hne. induction l as [|[k' v'] tl IH]; cbn.
  - destruct (Nat.eqb k2 k) eqn:E; [apply Nat.eqb_eq in E; congruence|reflexivity].
  - destruct (Nat.eqb k k') eqn:E; cbn.
    + apply Nat.eqb_eq in E. subst k'.
      destruct (Nat.eqb k2 k) eqn:E2; [apply Nat.eqb_eq in E2; congruence|reflexivity].
    + destruct (Nat.eqb k2 k'); [reflexivity|exact IH].
Qed.

Definition getm (l : list (mid * member)) (m : mid) : member :=
  match lookup m l with Some x => x | None => fresh end.

Lemma get_put_eq s m x : get (put s m x) m = x.
Proof. unfold get, put. cbn. rewrite lookup_update_eq. reflexivity. Qed.

Lemma get_put_neq s m m2 x : m2 <> m -> get (put s m x) m2 = get s m2.
Proof. intros H. unfold get, put. cbn. rewrite lookup_update_neq by exact H. reflexivity. Qed.

Definition in_rebalance (p : phase) : bool :=
  match p with PStable | PAssigning _ => false | _ => true end.

Fixpoint ids_desc (h : list genrec) : Prop :=
  match h with
  | [] => True
  | r :: tl => (match tl with r2 :: _ => g_id r2 < g_id r | [] => True end) /\ ids_desc tl
  end.

(* the members against the clock, and the generation records with the log of adoptions against the clock: every event
   advances the clock, most touch only one of the two *)
Definition mem_ok (mem : list (mid * member)) (clk : nat) : Prop :=
  forall m, rev_end (getm mem m) <= clk /\ (in_rebalance (ph (getm mem m)) = true -> gate (getm mem m) = true).
(* third clause: no record has a larger id than the head, so the record that JoinComplete pushes, with a still larger
   one, hides none of them from [find_gen] *)
Definition hist_ok (h : list genrec) (clk : nat) (alog : list (nat * mid * nat)) : Prop :=
  (forall r, In r h -> g_jc r <= clk /\ (forall m t, In (m, t) (g_rev r) -> t < g_jc r)
                       /\ g_id r <= match h with r0 :: _ => g_id r0 | [] => 0 end)
  /\ (forall g m t, In (g, m, t) alog -> exists r, find_gen g h = Some r /\ g_jc r < t /\ t <= clk).
Definition Inv (s : st) : Prop := mem_ok (mem s) (clock s) /\ hist_ok (hist s) (clock s) (assign_log s).

Lemma inv_init : Inv init.
Proof.
  split; [intros m; cbn; split; [lia | discriminate]|]. split; [intros r [] | intros g m t []].
Qed.

Lemma mem_ok_mono mem clk clk' : mem_ok mem clk -> clk <= clk' -> mem_ok mem clk'.
Proof. intros H Hle m. destruct (H m) as [A B]. split; [lia | exact B]. Qed.
Lemma hist_ok_mono h clk clk' alog : hist_ok h clk alog -> clk <= clk' -> hist_ok h clk' alog.
Proof.
  intros [Hh Ha] Hle. split.
  - intros r Hr. destruct (Hh r Hr) as (H1 & H2 & H3). repeat split; [lia | exact H2 | exact H3].
  - intros g m t Hin. destruct (Ha g m t Hin) as (r & Hf & Hl & Hc). exists r. repeat split; [exact Hf | exact Hl | lia].
Qed.
Lemma mem_ok_update mem clk m x : mem_ok mem clk -> rev_end x <= clk -> (in_rebalance (ph x) = true -> gate x = true) ->
  mem_ok (update m x mem) clk.
Proof.
  intros H Hx Hg m2. unfold getm. destruct (Nat.eq_dec m2 m) as [->|Hne].
  - rewrite lookup_update_eq. split; assumption.
  - rewrite lookup_update_neq by exact Hne. exact (H m2).
Qed.

(* the fold of JoinComplete *)
Lemma mem_ok_fold (f : mid -> member) clk : (forall m, rev_end (f m) <= clk /\ (in_rebalance (ph (f m)) = true -> gate (f m) = true)) ->
  forall ms mem, mem_ok mem clk -> mem_ok (fold_left (fun acc m => update m (f m) acc) ms mem) clk.
Proof.
  intros Hf. induction ms as [|m0 ms IH]; intros mem H; cbn [fold_left]; [exact H|].
  apply IH. apply mem_ok_update; [exact H | apply Hf | apply Hf].
Qed.

Lemma find_gen_in g h r : find_gen g h = Some r -> In r h /\ g_id r = g.
Proof.
  induction h as [|r0 tl IH]; cbn; [discriminate|].
  destruct (Nat.eqb (g_id r0) g) eqn:E.
  - intros H. injection H as <-. split; [left; reflexivity|apply Nat.eqb_eq; exact E].
  - intros H. destruct (IH H) as (Hi & Hg). split; [right; exact Hi|exact Hg].
Qed.

Lemma find_gen_set_dist g d : forall h g2 r, find_gen g2 (set_dist g d h) = Some r ->
  exists r0, find_gen g2 h = Some r0 /\ g_id r = g_id r0 /\ g_jc r = g_jc r0 /\ g_rev r = g_rev r0 /\
             g_members r = g_members r0.
Proof.
  induction h as [|r0 tl IH]; intros g2 r; cbn; [discriminate|].
  destruct (Nat.eqb (g_id r0) g) eqn:E; cbn.
  - destruct (Nat.eqb (g_id r0) g2) eqn:E2.
    + intros H. injection H as <-. exists r0. repeat split; reflexivity.
    + intros H. exists r. repeat split; try reflexivity. exact H.
  - destruct (Nat.eqb (g_id r0) g2) eqn:E2.
    + intros H. injection H as <-. exists r0. repeat split; reflexivity.
    + apply IH.
Qed.

Lemma set_dist_find g d : forall h g2 r0, find_gen g2 h = Some r0 ->
  exists r, find_gen g2 (set_dist g d h) = Some r /\ g_jc r = g_jc r0 /\ g_id r = g_id r0.
Proof.
  induction h as [|r1 tl IH]; intros g2 r0; cbn; [discriminate|].
  destruct (Nat.eqb (g_id r1) g) eqn:E; cbn.
  - destruct (Nat.eqb (g_id r1) g2) eqn:E2.
    + intros H. injection H as <-. eexists. split; [reflexivity|]. split; reflexivity.
    + intros H. exists r0. repeat split; try reflexivity. exact H.
  - destruct (Nat.eqb (g_id r1) g2) eqn:E2.
    + intros H. injection H as <-. eexists. split; [reflexivity|]. split; reflexivity.
    + apply IH.
Qed.

Lemma set_dist_in g d : forall h r, In r (set_dist g d h) ->
  exists r0, In r0 h /\ g_id r = g_id r0 /\ g_jc r = g_jc r0 /\ g_rev r = g_rev r0.
Proof.
  induction h as [|r1 tl IH]; intros r; cbn; [tauto|].
  destruct (Nat.eqb (g_id r1) g); cbn.
  - intros [<-|H]; [exists r1; cbn; tauto|exists r; tauto].
  - intros [<-|H]; [exists r1; tauto|]. destruct (IH r H) as (r0 & Hi & He). exists r0. tauto.
Qed.

Lemma set_dist_head g d h : match set_dist g d h with r :: _ => g_id r | [] => 0 end
                           = match h with r :: _ => g_id r | [] => 0 end.
Proof. destruct h as [|r tl]; cbn; [reflexivity|]. destruct (Nat.eqb (g_id r) g); reflexivity. Qed.

Lemma find_gen_lt g h : ids_desc h -> (forall r, In r h -> g_id r < g) -> find_gen g h = None.
Proof.
  induction h as [|r tl IH]; cbn; [reflexivity|]. intros (_ & Hd) Hlt.
  destruct (Nat.eqb (g_id r) g) eqn:E.
  - apply Nat.eqb_eq in E. specialize (Hlt r (or_introl eq_refl)). lia.
  - apply IH; [exact Hd|]. intros r0 Hr0. apply Hlt. right. exact Hr0.
Qed.

Lemma step_inv s e s' : Inv s -> step s e = Some s' -> Inv s'.
Proof.
  intros [Im [Ih Ia]] H. assert (Ir : forall m, rev_end (get s m) <= clock s) by (intros m; apply Im).
  assert (Hh' : hist_ok (hist s) (S (clock s)) (assign_log s)) by (apply (hist_ok_mono _ (clock s)); [split; assumption | lia]).
  assert (Im' : mem_ok (mem s) (S (clock s))) by (apply (mem_ok_mono _ (clock s)); [exact Im | lia]).
  assert (PUT : forall m x, rev_end x <= S (clock s) ->
            (in_rebalance (ph x) = true -> gate x = true) -> Inv (put s m x)).
  { intros m x Hx Hgx. split; cbn [put mem hist clock assign_log]; [|exact Hh']. apply mem_ok_update; [exact Im' | exact Hx | exact Hgx]. }
  destruct e; cbn [step] in H.
  - (* RevokeBegin *) destruct (ph (get s m)) eqn:Ep; try discriminate. injection H as <-.
    apply PUT; cbn; [specialize (Ir m); lia|reflexivity].
  - (* RevokeEnd *) destruct (ph (get s m)) eqn:Ep; try discriminate. injection H as <-.
    apply PUT; cbn; [lia|reflexivity].
  - (* JoinSent *) destruct (ph (get s m)) eqn:Ep; try discriminate; injection H as <-;
      apply PUT; cbn; try (specialize (Ir m); lia); reflexivity.
  - (* JoinComplete *)
    destruct ((latest_gen s <? g) && all_joining s ms && negb match ms with [] => true | _ => false end) eqn:Ec;
      [|discriminate].
    injection H as <-.
    apply andb_true_iff in Ec. destruct Ec as (Ec & _). apply andb_true_iff in Ec. destruct Ec as (Hlt & Haj).
    apply Nat.ltb_lt in Hlt. unfold latest_gen in Hlt.
    split; cbn [mem hist clock assign_log].
    + apply (mem_ok_fold (fun m => mkM (PJoined g) true (owned (get s m)) (rev_end (get s m)))).
      * intros m. cbn [rev_end ph gate]. split; [specialize (Ir m); lia | reflexivity].
      * exact Im'.
    + split.
      * intros r [<-|Hr]; cbn [g_jc g_rev g_id].
        -- repeat split; [lia | | lia].
           intros m t Hin. apply in_map_iff in Hin. destruct Hin as (m0 & Heq & _). injection Heq as <- <-.
           specialize (Ir m0). lia.
        -- destruct (Ih r Hr) as (H1 & H2 & H3). repeat split; [lia | exact H2 | lia].
      * intros g0 m t Hin. destruct (Ia g0 m t Hin) as (r & Hf & Hl & Hc).
        exists r. repeat split; [|exact Hl|lia].
        cbn [find_gen g_id]. destruct (Nat.eqb g g0) eqn:E; [|exact Hf].
        apply Nat.eqb_eq in E. subst g0. destruct (find_gen_in _ _ _ Hf) as (Hi & Hg).
        destruct (Ih r Hi) as (_ & _ & H3). lia.
  - (* SyncComplete *) destruct (find_gen g (hist s)) as [r|] eqn:Ef; [|discriminate].
    destruct (g_dist r); [discriminate|]. injection H as <-.
    split; cbn [hist clock assign_log mem]; [exact Im'|]. split.
    + intros r1 Hr1. destruct (set_dist_in _ _ _ _ Hr1) as (r0 & Hi & Hid & Hjc & Hrev).
      destruct (Ih r0 Hi) as (H1 & H2 & H3). rewrite Hjc, Hrev, Hid, set_dist_head. repeat split; [lia | exact H2 | exact H3].
    + intros g0 m t Hin. destruct (Ia g0 m t Hin) as (r0 & Hf & Hl & Hc).
      destruct (set_dist_find g d _ _ _ Hf) as (r1 & Hf1 & Hjc & _).
      exists r1. rewrite Hjc. repeat split; [exact Hf1|exact Hl|lia].
  - (* AssignBegin *) destruct (find_gen g (hist s)) as [r|] eqn:Ef; [|discriminate].
    destruct (assign_ok s m g) eqn:Eg; [|discriminate].
    destruct (g_dist r) as [d|]; [|discriminate].
    destruct (list_eqb a _); [|discriminate]. injection H as <-.
    destruct (find_gen_in _ _ _ Ef) as (Hi & _). destruct (Ih r Hi) as (Hjc & _).
    split; cbn [hist clock assign_log mem].
    + apply mem_ok_update; [exact Im' | cbn; specialize (Ir m); lia | discriminate].
    + destruct Hh' as [Hh1 Ha1]. split; [exact Hh1|].
      intros g1 m1 t [Heq|Hin]; [|exact (Ha1 g1 m1 t Hin)].
      injection Heq as <- <- <-. exists r. repeat split; [exact Ef|lia|lia].
  - (* AssignEnd *) destruct (ph (get s m)) eqn:Ep; try discriminate. injection H as <-.
    apply PUT; cbn; [specialize (Ir m); lia|discriminate].
  - (* Deliver *) destruct (negb (gate (get s m)) && existsb (Nat.eqb p) (owned (get s m))); [|discriminate].
    injection H as <-. split; cbn [mem hist clock assign_log]; [exact Im' | exact Hh'].
  - (* Gone *) injection H as <-. apply PUT; cbn; [specialize (Ir m); lia|reflexivity].
Qed.

Lemma run_inv : forall tr s s', Inv s -> run s tr = Some s' -> Inv s'.
Proof.
  induction tr as [|e tr IH]; intros s s' I H; cbn [run] in H.
  - injection H as <-. exact I.
  - destruct (step s e) as [s1|] eqn:E; [|discriminate]. eapply IH; [eapply step_inv; eassumption|exact H].
Qed.

(* read off [hist_ok]: the adoption logged at t found the record of g, whose barrier clock precedes t and follows
   every revocation it recorded; what this says of the consumer is spelled out at [c05_barrier], props/C05.v *)
Theorem barrier tr s g m' t :
  run init tr = Some s -> In (g, m', t) (assign_log s) ->
  exists r, find_gen g (hist s) = Some r /\ g_jc r < t /\
            forall m tr_end, In (m, tr_end) (g_rev r) -> tr_end < g_jc r.
Proof.
  intros H Hin. pose proof (run_inv tr init s inv_init H) as [_ [Ih Ia]].
  destruct (Ia g m' t Hin) as (r & Hf & Hl & _). exists r. repeat split; [exact Hf|exact Hl|].
  destruct (find_gen_in _ _ _ Hf) as (Hi & _). destruct (Ih r Hi) as (_ & H2 & _). exact H2.
Qed.

Lemma list_eqb_eq : forall a b, list_eqb a b = true -> a = b.
Proof.
  unfold list_eqb. induction a as [|x a IH]; intros [|y b] H; cbn in *; try reflexivity; try discriminate.
  apply andb_true_iff in H. destruct H as (Hl & Hf). apply andb_true_iff in Hf. destruct Hf as (Hxy & Hf).
  apply Nat.eqb_eq in Hxy. subst y. f_equal. apply IH. apply andb_true_iff. split; [|exact Hf].
  apply Nat.eqb_eq in Hl. apply Nat.eqb_eq. lia.
Qed.

Lemma disjoint_lookup : forall d m1 m2 l1 l2 p,
  disjoint_b d = true -> NoDup (map fst d) ->
  lookup m1 d = Some l1 -> lookup m2 d = Some l2 -> m1 <> m2 -> In p l1 -> ~ In p l2.
Proof.
  induction d as [|[m l] tl IH]; intros m1 m2 l1 l2 p Hd Hnd H1 H2 Hne Hp1 Hp2; cbn in *; [discriminate|].
  apply andb_true_iff in Hd. destruct Hd as (Hhead & Htl).
  inversion Hnd as [|? ? Hnotin Hnd']; subst.
  assert (INL : forall k v, lookup k tl = Some v -> In (k, v) tl).
  { clear. induction tl as [|[k' v'] tl IH]; intros k v H; cbn in *; [discriminate|].
    destruct (Nat.eqb k k') eqn:E; [apply Nat.eqb_eq in E; subst; injection H as <-; left; reflexivity|right; apply IH; exact H]. }
  rewrite forallb_forall in Hhead.
  destruct (Nat.eqb m1 m) eqn:E1; destruct (Nat.eqb m2 m) eqn:E2.
  - apply Nat.eqb_eq in E1, E2. congruence.
  - injection H1 as <-. specialize (Hhead p Hp1). rewrite forallb_forall in Hhead.
    specialize (Hhead (m2, l2) (INL _ _ H2)). cbn in Hhead. apply negb_true_iff in Hhead.
    assert (existsb (Nat.eqb p) l2 = true) by (apply existsb_exists; exists p; split; [exact Hp2|apply Nat.eqb_refl]).
    congruence.
  - injection H2 as <-. specialize (Hhead p Hp2). rewrite forallb_forall in Hhead.
    specialize (Hhead (m1, l1) (INL _ _ H1)). cbn in Hhead. apply negb_true_iff in Hhead.
    assert (existsb (Nat.eqb p) l1 = true) by (apply existsb_exists; exists p; split; [exact Hp1|apply Nat.eqb_refl]).
    congruence.
  - exact (IH m1 m2 l1 l2 p Htl Hnd' H1 H2 Hne Hp1 Hp2).
Qed.

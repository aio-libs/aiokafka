(* C10_cy_proof.v — the repaired compiled readers never read out of bounds, never run out of
   fuel and never fail with an internal error: every run ends in SDone or an ordinary exception. *)
From Coq Require Import ZArith List Bool Lia ZifyBool.
From Verif Require Import C10_Base C10_DecodeSafeCy C10_wp.
Import ListNotations.
Open Scope Z_scope.

Local Notation fx := fx_repaired.

(* the variant: a continuation byte adds 7 to [shift], and past 63 the loop raises *)
Lemma cy_varint_loop_wp sp buf : forall n pos shift value,
  0 <= pos -> shift <= 63 -> 63 - shift < 7 * Z.of_nat n ->
  wp (cy_varint_loop fx n sp buf pos shift value) (fun r => pos < snd r <= zlen buf).
Proof.
  induction n; intros pos shift value Hp Hs Hf.
  - lia.
  - cbn [cy_varint_loop fx_varint fx_repaired].
    destruct (pos <? zlen buf) eqn:E; cbn [negb andb]; [|exact I].
    step rd_wp. intros l _. cbv zeta.
    destruct (128 <=? be_u l).
    + destruct (63 <? shift + 7) eqn:E2; [exact I|].
      mono IHn. intros r Hr. lia.
    + cbn [wp snd]. lia.
Qed.

Lemma cy_varint_wp sp buf pos :
  0 <= pos -> wp (cy_varint fx sp buf pos) (fun r => pos < snd r <= zlen buf).
Proof. intros. unfold cy_varint. apply cy_varint_loop_wp; simpl; lia. Qed.

Lemma cy_chk_wp len pos size :
  wp (cy_chk fx len pos size) (fun _ => 0 <= size <= len - pos).
Proof.
  unfold cy_chk. cbn [fx_bounds fx_repaired].
  destruct ((size <? 0) || (len - pos <? size)) eqn:E; [exact I|]. cbn [wp]. lia.
Qed.

Lemma cy_vi_wp sp buf p :
  0 <= p -> wp (cy_vi fx sp buf p) (fun r => p < snd r <= zlen buf).
Proof.
  intros. unfold cy_vi. step cy_chk_wp. intros _ _. apply cy_varint_wp; lia.
Qed.

Lemma cy_opt_bytes_wp sp buf p n :
  small buf -> 0 <= p <= zlen buf ->
  wp (cy_opt_bytes fx sp buf p n) (fun r => p <= snd r <= zlen buf).
Proof.
  intros Hs Hp. unfold cy_opt_bytes. destruct (0 <=? n) eqn:E.
  - step cy_chk_wp. intros _ H. step bytes_from_wp. intros k _. cbn [wp snd]. lia.
  - cbn [wp snd]. lia.
Qed.

Lemma cy_headers_wp sp buf : small buf -> forall fuel p hc acc,
  0 <= p <= zlen buf -> zlen buf - p < Z.of_nat fuel ->
  wp (cy_headers fx fuel sp buf p hc acc) (fun r => p <= snd r <= zlen buf).
Proof.
  intros Hs. induction fuel; intros p hc acc Hp Hf.
  - lia.
  - cbn [cy_headers]. destruct (hc <=? 0); [cbn [wp snd]; lia|].
    pairstep cy_varint_wp klen p1 H1.
    destruct (klen <? 0); [exact I|].
    step cy_chk_wp. intros _ H2.
    step bytes_from_wp. intros hk _. cbv zeta.
    pairstep cy_varint_wp vlen p2 H3.
    pairstep cy_opt_bytes_wp hval p3 H4.
    destruct (utf8_ok hk); [|exact I].
    mono IHfuel. intros r Hr. lia.
Qed.

Lemma cy_read_msg_wp h sp buf pos :
  small buf -> 0 <= pos <= zlen buf ->
  wp (cy_read_msg fx h sp buf pos) (fun r => pos < snd r <= zlen buf).
Proof.
  intros Hs Hp. unfold cy_read_msg.
  pairstep cy_vi_wp rlen p1 H1.
  pairstep cy_vi_wp attrs p2 H2.
  pairstep cy_vi_wp tsd p3 H3.
  pairstep cy_vi_wp offd p4 H4.
  pairstep cy_vi_wp klen p5 H5.
  pairstep cy_opt_bytes_wp rkey p6 H6.
  pairstep cy_vi_wp vlen p7 H7.
  pairstep cy_opt_bytes_wp rval p8 H8.
  pairstep cy_vi_wp hc p9 H9.
  destruct (hc <? 0); [exact I|].
  step cy_headers_wp. { apply fuel_ok; lia. }
  intros [hs p10] H10; cbn [snd] in H10; cbv beta iota zeta.
  destruct (negb (p10 - p1 =? rlen)); [exact I|]. cbn [wp snd]. lia.
Qed.

Lemma cy_v2_iter_ok h sp buf : small buf -> forall fuel pos idx acc,
  0 <= pos <= zlen buf -> zlen buf - pos < Z.of_nat fuel ->
  ok_status (snd (cy_v2_iter fx fuel h sp buf pos idx acc)).
Proof.
  intros Hs. induction fuel; intros pos idx acc Hp Hf.
  - lia.
  - cbn [cy_v2_iter]. destruct (h_num_records h <=? idx).
    + destruct (pos =? zlen buf); exact I.
    + okstep cy_read_msg_wp. intros [r p] W; cbn [snd] in W. apply IHfuel; lia.
Qed.

Definition v2_crc_field (buf : list Z) : Z := be_u (sub buf 17 4).
Definition v2_crc_content (buf : list Z) : list Z := sub buf 21 (zlen buf - 21).

Lemma cy_v2_read_header_wp buf : wp (cy_v2_read_header fx buf) (fun _ => 61 <= zlen buf).
Proof.
  unfold cy_v2_read_header. cbn [fx_hdr fx_repaired andb].
  destruct (zlen buf <? 61) eqn:E; [exact I|].
  do 3 (step rd_i_wp; intros ? _). step rd_u_wp. intros crc _. do 8 (step rd_i_wp; intros ? _).
  cbn [wp]. lia.
Qed.

Lemma cy_v2_read_header_inv (f : fixes) buf h :
  cy_v2_read_header f buf = Ok h -> 21 <= zlen buf /\ h_crc h = v2_crc_field buf.
Proof.
  unfold cy_v2_read_header. destruct (fx_hdr f && (zlen buf <? 61)); [discriminate|]. intros H.
  do 3 (apply bind_ok_inv in H as (? & _ & H)).
  apply bind_ok_inv in H as (crc & Hcrc%rd_u_inv & H).
  do 8 (apply bind_ok_inv in H as (? & _ & H)).
  injection H as <-. exact Hcrc.
Qed.

Lemma cy_v2_validate_eq crc32c h buf :
  21 <= zlen buf ->
  cy_v2_validate crc32c h buf = Ok (h_crc h =? crc32c (v2_crc_content buf)).
Proof.
  intros. unfold cy_v2_validate, v2_crc_content.
  replace (zlen buf - 21 <? 0) with false by lia.
  unfold rd. replace ((0 <=? 21) && (21 + (zlen buf - 21) <=? zlen buf)) with true by lia.
  reflexivity.
Qed.

(* every output of the (abstract) codec is smaller than the largest possible allocation *)
Definition dec_small (dec : Z -> list Z -> dres) : Prop :=
  forall c p out, dec c p = DOk out -> small out.

Lemma cy_v2_uncompress_wp dec h buf :
  dec_small dec -> small buf -> 61 <= zlen buf ->
  wp (cy_v2_uncompress dec h buf) (fun r => small (snd (fst r)) /\ 0 <= snd r <= zlen (snd (fst r))).
Proof.
  intros Hd Hs Hl. unfold cy_v2_uncompress.
  destruct (h_attrs h mod 8 =? 0); [cbn [wp fst snd]; split; [assumption|lia]|].
  destruct (4 <? h_attrs h mod 8); [exact I|].
  step rd_wp. intros payload _.
  destruct (dec (h_attrs h mod 8) payload) eqn:E; [|exact I].
  cbn [wp fst snd]. split; [eapply Hd; eassumption|]. pose proof (zlen_nonneg out). lia.
Qed.

Theorem cy_v2_run_ok crc32c dec validate buf :
  dec_small dec -> small buf -> ok_status (snd (cy_v2_run crc32c dec fx validate buf)).
Proof.
  intros Hd Hs. unfold cy_v2_run.
  okstep cy_v2_read_header_wp. intros h Hl.
  eapply ok_match with (Q := fun _ => True).
  { destruct validate; [rewrite cy_v2_validate_eq by lia|]; exact I. }
  intros [|] _; [|exact I].
  okstep cy_v2_uncompress_wp. intros [[sp b] pos] [Hb Hpos]; cbn [fst snd] in Hb, Hpos.
  apply cy_v2_iter_ok; [assumption|lia|apply fuel_ok; lia].
Qed.

Lemma cy_l_opt_bytes_wp sp buf p n :
  small buf -> 0 <= p <= zlen buf ->
  wp (cy_l_opt_bytes fx sp buf p n) (fun r => p <= snd r <= zlen buf).
Proof.
  intros Hs Hp. unfold cy_l_opt_bytes. destruct (n =? -1).
  - cbn [wp snd]. lia.
  - step cy_chk_wp. intros _ H. step bytes_from_wp. intros k _. cbn [wp snd]. lia.
Qed.

Lemma cy_l_read_record_wp sp buf pos :
  small buf -> 0 <= pos ->
  wp (cy_l_read_record fx sp buf pos) (fun r => pos + 26 <= snd r <= zlen buf).
Proof.
  intros Hs Hp. unfold cy_l_read_record. cbv zeta.
  step cy_chk_wp. intros _ H0.
  step rd_i_wp. intros offset _. step rd_u_wp. intros crc _.
  step rd_i_wp. intros magic _. step rd_i_wp. intros attrs _.
  eapply wp_bind_mono with (P := fun tp => pos + 18 <= snd tp /\ snd tp + 8 <= zlen buf).
  { destruct (magic =? 1).
    - step cy_chk_wp. intros _ H1. step rd_i_wp. intros ts _. cbn [wp snd]. lia.
    - cbn [wp snd]. lia. }
  intros [ts p] [Ha Hb]; cbn [snd] in Ha, Hb; cbv beta iota zeta.
  step rd_i_wp. intros ksz _.
  pairstep cy_l_opt_bytes_wp rkey p1 H1.
  cbn [fx_vlen fx_repaired].
  step cy_chk_wp. intros _ H2.
  step rd_i_wp. intros vsz _.
  pairstep cy_l_opt_bytes_wp rval p2 H3.
  cbn [wp snd]. lia.
Qed.

(* Either the loop did not iterate, or its last iteration started at some q with the 12 bytes of
   offset and length inside the buffer, read the length [snd r] >= 0 there and stopped at
   q + 12 + snd r: so [cy_last_offset] reads the last offset at q.  [pos] may overshoot the end
   of the buffer, hence Z.max in the variant. *)
Lemma cy_last_loop_wp buf : forall fuel pos length,
  0 <= pos -> Z.max 0 (zlen buf - pos) < Z.of_nat fuel ->
  wp (cy_last_loop fx fuel buf pos length)
     (fun r => (r = (pos, length)) \/
               (exists q, 0 <= q /\ q + 12 <= zlen buf /\ 0 <= snd r /\ fst r = q + 12 + snd r)).
Proof.
  induction fuel; intros pos length Hp Hf.
  - lia.
  - cbn [cy_last_loop fx_lastoff fx_repaired andb].
    destruct (pos <? zlen buf) eqn:E; [|cbn [wp]; left; reflexivity].
    destruct (zlen buf - pos <? 12) eqn:E2; [exact I|].
    step rd_i_wp. intros len1 _.
    destruct (len1 <? 0) eqn:E3; [exact I|].
    mono IHfuel.
    intros r [->|[q Hq]]; right.
    + exists pos. cbn [fst snd]. lia.
    + exists q. exact Hq.
Qed.

Lemma cy_last_offset_wp buf : wp (cy_last_offset fx buf) (fun _ => True).
Proof.
  unfold cy_last_offset. pose proof (zlen_nonneg buf).
  step cy_last_loop_wp. { unfold zlen in *; lia. }
  intros [pos length] Hr; cbv beta iota zeta. cbn [fx_lastoff fx_repaired andb].
  destruct ((zlen buf <? pos) || (pos =? 0)) eqn:E; [exact I|].
  destruct Hr as [Hr|[q Hq]]; cbn [fst snd] in *.
  - injection Hr as -> ->. lia.
  - apply rd_i_wp; lia.
Qed.

Lemma cy_l_inner_ok main abs buf : small buf -> forall fuel pos acc,
  0 <= pos <= zlen buf -> zlen buf - pos < Z.of_nat fuel ->
  ok_status (snd (cy_l_inner fx fuel main abs buf pos acc)).
Proof.
  intros Hs. induction fuel; intros pos acc Hp Hf.
  - lia.
  - cbn [cy_l_inner]. destruct (pos <? zlen buf) eqn:E; [|exact I].
    okstep cy_l_read_record_wp. intros [m p] W; cbn [snd] in W.
    destruct (negb (m_attrs m mod 8 =? 0)); [exact I|].
    cbv zeta. apply IHfuel; lia.
Qed.

Lemma cy_l_iter_ok dec magic main : dec_small dec -> ok_status (snd (cy_l_iter dec fx magic main)).
Proof.
  intros Hd. unfold cy_l_iter. cbv zeta.
  destruct (m_attrs main mod 8 =? 0); [exact I|].
  destruct (m_value main) as [value|]; [|exact I].
  destruct (3 <? m_attrs main mod 8); [exact I|].
  destruct ((m_attrs main mod 8 =? 3) && (magic =? 0)); [exact I|].
  destruct (dec (m_attrs main mod 8) value) as [out|e] eqn:E; [|exact I].
  assert (Hs : small out) by (eapply Hd; eassumption).
  pose proof (zlen_nonneg out).
  eapply ok_match with (Q := fun _ => True).
  { destruct (0 <? magic); [|exact I]. step cy_last_offset_wp. intros lo _. exact I. }
  intros [lo|] _; [destruct (lo =? -1); [exact I|]|].
  all: apply cy_l_inner_ok; [assumption|lia|apply fuel_ok; lia].
Qed.

Definition l_crc_field (buf : list Z) : Z := be_u (sub buf 12 4).
Definition l_crc_content (buf : list Z) : list Z := sub buf 16 (zlen buf - 16).

Lemma cy_l_validate_eq crc32 m buf :
  16 <= zlen buf ->
  cy_l_validate crc32 m buf = Ok (m_crc m =? crc32 (l_crc_content buf)).
Proof.
  intros. unfold cy_l_validate, l_crc_content.
  replace (zlen buf - 16 <? 0) with false by lia.
  unfold rd. replace ((0 <=? 16) && (16 + (zlen buf - 16) <=? zlen buf)) with true by lia.
  reflexivity.
Qed.

Theorem cy_l_run_ok crc32 dec validate magic buf :
  dec_small dec -> small buf -> ok_status (snd (cy_l_run crc32 dec fx validate magic buf)).
Proof.
  intros Hd Hs. unfold cy_l_run.
  okstep cy_l_read_record_wp. intros [main p] W; cbn [snd] in W.
  eapply ok_match with (Q := fun _ => True).
  { destruct validate; [rewrite cy_l_validate_eq by lia|]; exact I. }
  intros [|] _; [|exact I].
  apply cy_l_iter_ok. assumption.
Qed.

Lemma rebase_ok base total st : ok_status st -> ok_status (rebase base total st).
Proof.
  intros H. destruct st as [|f]; [exact I|]. destruct f; cbn in H; try contradiction. exact I.
Qed.

Theorem cy_mr_loop_ok crc32c crc32 dec validate buf : dec_small dec -> small buf -> forall fuel pos acc,
  0 <= pos <= zlen buf -> zlen buf - pos < Z.of_nat fuel ->
  ok_status (snd (cy_mr_loop crc32c crc32 dec fx fuel validate buf pos acc)).
Proof.
  intros Hd Hs. induction fuel; intros pos acc Hp Hf.
  - lia.
  - cbn [cy_mr_loop]. cbv zeta.
    destruct (zlen buf - pos <? 12) eqn:E1; [exact I|].
    okstep rd_i_wp. intros length _.
    destruct (zlen buf - pos <? 12 + length) eqn:E2; [exact I|].
    destruct (length <? 14) eqn:E3; [exact I|].
    okstep rd_i_wp. intros magic _.
    assert (Hsl : small (sub buf pos (12 + length))) by (apply small_sub; assumption).
    assert (R : ok_status (snd (if magic <? 2
                                then cy_l_run crc32 dec fx validate magic (sub buf pos (12 + length))
                                else cy_v2_run crc32c dec fx validate (sub buf pos (12 + length))))).
    { destruct (magic <? 2); [apply cy_l_run_ok|apply cy_v2_run_ok]; assumption. }
    destruct (if magic <? 2 then _ else _) as [recs st]. cbn [snd] in R.
    destruct st as [|f].
    + apply IHfuel; lia.
    + cbn [snd]. apply rebase_ok. exact R.
Qed.

Theorem cy_decode_ok crc32c crc32 dec validate buf :
  dec_small dec -> small buf -> ok_status (snd (cy_decode crc32c crc32 dec fx validate buf)).
Proof.
  intros Hd Hs. unfold cy_decode. pose proof (zlen_nonneg buf).
  apply cy_mr_loop_ok; [assumption|assumption|lia|apply fuel_ok; lia].
Qed.

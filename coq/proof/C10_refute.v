(* C10_refute.v — the models of the readers before the repairs F22-F27 ([fx_current]) violate the
   universal statements: concrete witnesses, closed by vm_compute.  Each witness is replayed on the real extension
   (AddressSanitizer build) and on the real pure-Python classes by harness/c10.py (corpus/C10). *)
From Coq Require Import ZArith List String Bool.
From Verif Require Import C10_Base C10_DecodeSafeCy C10_DecodeSafePy.
Import ListNotations.
Open Scope Z_scope.
Open Scope string_scope.

Definition C := crc32c_cast.
Definition C2 := crc32_ieee.
(* no codec is needed for the first witnesses *)
Definition D0 : Z -> list Z -> dres := fun _ _ => DRaise "no-codec".

(* a 26-byte magic-2 frame (length field 14): _read_header reads up to byte 61 *)
Definition w_hdr := of_hex "00000000000000000000000e0000000002000000000000000000".
(* a 61-byte v2 header announcing one record, followed by the single byte 0x80 *)
Definition w_varint := of_hex "00000000000000000000003200000000020000000000000000000000000000000000000000000000000000ffffffffffffffffffffffffffff0000000180".
(* one record whose key length is 2^63-20 / 2^63-59: pos + size wraps in _check_bounds *)
Definition w_ovf := of_hex "00000000000000000000003f00000000020000000000000000000000000000000000000000000000000000ffffffffffffffffffffffffffff0000000100000000d8ffffffffffffffff01616263".
Definition w_mem := of_hex "00000000000000000000003f00000000020000000000000000000000000000000000000000000000000000ffffffffffffffffffffffffffff00000001000000008affffffffffffffff01616263".
(* a v0 message whose key length is -2 *)
Definition w_neg := of_hex "00000000000000000000000e000000000000fffffffe00000000".
(* a 26-byte v0 message whose 4-byte key ends the buffer: the value length is read past the end *)
Definition w_vlen := of_hex "00000000000000000000000e0000000000000000000461626364".
(* a v1 wrapper message marked gzip; the codec is abstract: what it returns is chosen below *)
Definition w_wrap := of_hex "0000000000000007000000180000000001010000000000000005ffffffff000000021f8b".
Definition D5 : Z -> list Z -> dres := fun _ _ => DOk [49; 50; 51; 52; 53].      (* 5-byte payload *)
Definition DE : Z -> list Z -> dres := fun _ _ => DOk [].                        (* empty payload *)
Definition DH : Z -> list Z -> dres :=                                           (* inner length -12 *)
  fun _ _ => DOk (of_hex "0000000000000000fffffff400000000000000000000000000000000000000000000").

Lemma w_hdr_cur : cy_decode C C2 D0 fx_current false w_hdr = ([], SFail (FOOB "default_records._read_header" 0 23 4 26)).
Proof. vm_compute. reflexivity. Qed.
Lemma w_varint_cur : cy_decode C C2 D0 fx_current false w_varint = ([], SFail (FOOB "cutil.decode_varint64" 0 62 1 62)).
Proof. vm_compute. reflexivity. Qed.
Lemma w_ovf_cur : cy_decode C C2 D0 fx_current false w_ovf = ([], SFail (FInternal "default_records._read_msg" "OverflowError")).
Proof. vm_compute. reflexivity. Qed.
Lemma w_mem_cur : cy_decode C C2 D0 fx_current false w_mem = ([], SFail (FInternal "default_records._read_msg" "MemoryError")).
Proof. vm_compute. reflexivity. Qed.
Lemma w_neg_cur : cy_decode C C2 D0 fx_current false w_neg = ([], SFail (FInternal "legacy_records._read_record" "SystemError")).
Proof. vm_compute. reflexivity. Qed.
Lemma w_vlen_cur : cy_decode C C2 D0 fx_current false w_vlen = ([], SFail (FOOB "legacy_records._read_record" 0 26 4 26)).
Proof. vm_compute. reflexivity. Qed.
Lemma w_last5_cur : cy_decode C C2 D5 fx_current false w_wrap = ([], SFail (FOOB "legacy_records._read_last_offset" 1 8 4 5)).
Proof. vm_compute. reflexivity. Qed.
Lemma w_last0_cur : cy_decode C C2 DE fx_current false w_wrap = ([], SFail (FOOB "legacy_records._read_last_offset" 1 (-12) 8 0)).
Proof. vm_compute. reflexivity. Qed.
Lemma w_hang_cy_cur : cy_decode C C2 DH fx_current false w_wrap = ([], SFail (FFuel "legacy_records._read_last_offset")).
Proof. vm_compute. reflexivity. Qed.
Lemma w_hang_py_cur : py_decode C C2 DH fx_current false w_wrap = ([], SFail (FFuel "legacy_records.py._read_all_headers")).
Proof. vm_compute. reflexivity. Qed.

(* the same inputs on the repaired readers: CorruptRecordException *)
Lemma witnesses_repaired :
  map (fun b => snd (cy_decode C C2 D0 fx_repaired false b)) [w_hdr; w_varint; w_ovf; w_mem; w_neg; w_vlen]
  = repeat (SFail (FRaise Corrupt)) 6
  /\ map (fun d => snd (cy_decode C C2 d fx_repaired false w_wrap)) [D5; DE; DH] = repeat (SFail (FRaise Corrupt)) 3
  /\ snd (py_decode C C2 DH fx_repaired false w_wrap) = SFail (FRaise Corrupt).
Proof. vm_compute. repeat split; reflexivity. Qed.

(* all flags on except one: that repair's witness still fails (props/C10.v, c10_each_fix_needed) *)
Definition fx_but_hdr := Build_fixes false true true true true true.
Definition fx_but_varint := Build_fixes true false true true true true.
Definition fx_but_bounds := Build_fixes true true false true true true.
Definition fx_but_vlen := Build_fixes true true true false true true.
Definition fx_but_lastoff := Build_fixes true true true true false true.
Definition fx_but_pyhdrs := Build_fixes true true true true true false.

(* C14 — sticky assignor: every StickyAbs run preserves single ownership by potential
   consumers; StickyCtl runs (the checked skeleton of the real executor) are StickyAbs runs;
   their results are valid. *)
From Coq Require Import Arith List Bool Lia PeanoNat.
From Verif Require Import C14_Assignors C14_lists C14_Sticky C14_checkers.
Import ListNotations.

(* single ownership by potential consumers *)
Definition sound (ppt : layout) (ms : members_t) (st : triples) : Prop :=
  NoDup (map snd st) /\ forall e, In e st -> potential_b ppt ms (fst e) (snd e) = true.

Lemma drop_sound : forall ppt ms st, NoDup (map snd st) -> sound ppt ms (drop ppt ms st).
Proof.
  intros. split.
  - apply NoDup_map_filter; auto.
  - intros e He. apply filter_In in He. tauto.
Qed.

Lemma assign_sound : forall ppt ms st x c,
  sound ppt ms st -> owner st x = None -> potential_b ppt ms c x = true ->
  sound ppt ms (st ++ [(c, x)]).
Proof.
  intros ppt ms st x c [Hn Hp] Ho Hc. split.
  - rewrite map_app. simpl. apply NoDup_app_intro; auto.
    + constructor; [simpl; tauto|constructor].
    + intros y Hy [E|[]]. subst. apply owner_none_iff in Ho. tauto.
  - intros e He. apply in_app_iff in He. destruct He as [He|[E|[]]]; auto. subst. auto.
Qed.

Lemma set_owner_snd : forall st x c, map snd (set_owner st x c) = map snd st.
Proof.
  intros. unfold set_owner. rewrite map_map. apply map_ext. intros e.
  destruct (tp_eqb_spec (snd e) x); auto.
Qed.

Lemma set_owner_In : forall st x c e, In e (set_owner st x c) ->
  e = (c, x) \/ (In e st /\ snd e <> x).
Proof.
  intros st x c e H. unfold set_owner in H. apply in_map_iff in H. destruct H as [e' [E Hin]].
  destruct (tp_eqb_spec (snd e') x); subst; auto.
Qed.

Lemma move_sound : forall ppt ms st x c,
  sound ppt ms st -> potential_b ppt ms c x = true -> sound ppt ms (set_owner st x c).
Proof.
  intros ppt ms st x c [Hn Hp] Hc. split.
  - rewrite set_owner_snd. auto.
  - intros e He. apply set_owner_In in He. destruct He as [->|[He _]]; auto.
Qed.

(* a property of ownership lists as an invariant of StickyAbs: it holds of the current
   state and of the snapshot that Revert would restore *)
Definition abs_lift (P : triples -> Prop) (s : triples * option triples) : Prop :=
  P (fst s) /\ forall sn, snd s = Some sn -> P sn.

Lemma abs_lift_none {P : triples -> Prop} {st} : P st -> abs_lift P (st, None).
Proof. intros H. split; simpl; [exact H | discriminate]. Qed.

Section AbsLift.
Variables (ppt : layout) (ms : members_t) (P : triples -> Prop).
Definition drop_ok (o : aop) : Prop := o = ADrop -> forall st, P st -> P (drop ppt ms st).
Hypothesis Hassign : forall st x c,
  P st -> owner st x = None -> potential_b ppt ms c x = true -> P (st ++ [(c, x)]).
Hypothesis Hmove : forall st x c, P st -> potential_b ppt ms c x = true -> P (set_owner st x c).

Lemma abs_step_lift : forall s o s',
  drop_ok o -> abs_lift P s -> abs_step ppt ms s o = Some s' -> abs_lift P s'.
Proof.
  intros [st sn] o s' Hd [H1 H2] H. simpl in *. destruct o as [|x c| |x c|]; simpl in H.
  - inversion H; subst. split; simpl; auto.
  - destruct (owner st x) eqn:Eo; [discriminate|].
    destruct (potential_b ppt ms c x) eqn:Ep; [|discriminate]. inversion H; subst.
    split; simpl; auto.
  - inversion H; subst. split; simpl; auto. intros sn' E. inversion E; subst; auto.
  - destruct (owner st x) eqn:Eo; [|discriminate].
    destruct (potential_b ppt ms c x) eqn:Ep; [|discriminate]. inversion H; subst.
    split; simpl; auto.
  - destruct sn as [sn0|]; [|discriminate]. inversion H; subst. split; simpl; auto.
Qed.

Lemma abs_run_lift : forall ops s s',
  Forall drop_ok ops -> abs_lift P s -> abs_run ppt ms s ops = Some s' -> abs_lift P s'.
Proof.
  induction ops as [|o r IH]; simpl; intros s s' Hf Hi H.
  - inversion H; subst; auto.
  - inversion Hf; subst. destruct (abs_step ppt ms s o) as [s1|] eqn:E; [|discriminate].
    apply (IH s1 s'); auto. eapply abs_step_lift; eauto.
Qed.
End AbsLift.

Lemma abs_run_sound {ppt ms ops st st' sn} :
  sound ppt ms st -> abs_run ppt ms (st, None) ops = Some (st', sn) -> sound ppt ms st'.
Proof.
  intros Hs H.
  refine (proj1 (abs_run_lift ppt ms _ (assign_sound ppt ms) (move_sound ppt ms) ops _ _ _
                   (abs_lift_none Hs) H)).
  apply Forall_forall. intros o _ _ s [Hn _]. apply drop_sound, Hn.
Qed.

(* completeness of the state and of the snapshot, i.e. [abs_lift (complete ppt ms)]: preserved
   by everything but Drop *)
Definition abs_cinv (ppt : layout) (ms : members_t) (s : triples * option triples) : Prop :=
  complete ppt ms (fst s) /\ forall sn, snd s = Some sn -> complete ppt ms sn.

Lemma set_owner_complete : forall ppt ms st x c,
  complete ppt ms st -> complete ppt ms (set_owner st x c).
Proof.
  intros ppt ms st x c H y Hy. destruct (H y Hy) as [m Hm].
  assert (Hin : In y (map snd (set_owner st x c))).
  { rewrite set_owner_snd. apply (in_map snd _ _ Hm). }
  apply in_map_iff in Hin. destruct Hin as [[m' y'] [E Hin]]. simpl in E. subst. eauto.
Qed.

Definition no_drop (o : aop) : Prop := match o with ADrop => False | _ => True end.

Lemma abs_run_cinv : forall ppt ms ops s s', Forall no_drop ops ->
  abs_cinv ppt ms s -> abs_run ppt ms s ops = Some s' -> abs_cinv ppt ms s'.
Proof.
  intros ppt ms ops s s' Hf. apply (abs_run_lift ppt ms (complete ppt ms)).
  - intros st x c H _ _ y Hy. destruct (H y Hy) as [m Hm]. exists m. apply in_app_iff; auto.
  - intros st x c H _. apply set_owner_complete, H.
  - eapply Forall_impl; [|exact Hf]. intros o Ho ->. destruct Ho.
Qed.

Lemma sound_complete_valid : forall ppt ms st, ids_nodup ms ->
  sound ppt ms st -> complete ppt ms st -> valid ppt ms st.
Proof.
  intros ppt ms st Hi [Hn Hp] Hc. split; auto. split; auto.
  intros m x Hin. apply (potential_b_spec ppt ms m x Hi). apply (Hp (m, x)); auto.
Qed.

Lemma least_loaded_In : forall st cs c, least_loaded st cs = Some c -> In c cs.
Proof.
  induction cs as [|a r IH]; simpl; intros c H; [discriminate|].
  destruct (least_loaded st r) as [b|] eqn:E.
  - destruct (less_loaded st b a); inversion H; subst; auto.
  - inversion H; auto.
Qed.

Lemma opt_nat_eqb_eq : forall a b, opt_nat_eqb a b = true -> a = Some b.
Proof. intros [a|] b H; simpl in H; [apply Nat.eqb_eq in H; subst; auto | discriminate]. Qed.

(* what one accepted `_assign_partition` entry says *)
Lemma ctl_assign_inv {ppt ms st x c st'} :
  ctl_assign ppt ms st (x, c) = Some st' ->
  owner st x = None /\ least_loaded st (potentials ppt ms x) = Some c /\
  potential_b ppt ms c x = true /\ st' = st ++ [(c, x)].
Proof.
  intros H. unfold ctl_assign in H.
  destruct (owner st x); [discriminate|].
  destruct (opt_nat_eqb (least_loaded st (potentials ppt ms x)) c) eqn:E; [|discriminate].
  apply opt_nat_eqb_eq in E. inversion H. repeat split; auto.
  apply potentials_In. eapply least_loaded_In; eauto.
Qed.

Lemma ctl_assigns_abs {ppt ms l st st'} sn :
  ctl_assigns ppt ms st l = Some st' ->
  abs_run ppt ms (st, sn) (map (fun a => AAssign (fst a) (snd a)) l) = Some (st', sn).
Proof.
  revert st. induction l as [|[x c] r IH]; intros st H; cbn [ctl_assigns] in H.
  - inversion H; auto.
  - destruct (ctl_assign ppt ms st (x, c)) as [st1|] eqn:E; [|discriminate].
    apply ctl_assign_inv in E. destruct E as [Ho [_ [Hp ->]]].
    cbn [map abs_run abs_step fst snd]. rewrite Ho, Hp. apply IH, H.
Qed.

Lemma candidates_topic : forall mv x c c' q, In q (candidates mv x c c') -> fst q = fst x.
Proof.
  intros mv x c c' q H. unfold candidates in H.
  destruct (map fst (filter _ mv)) as [|q0 qs] eqn:E.
  - destruct H as [<-|[]]. reflexivity.
  - rewrite <- E in H. apply in_map_iff in H. destruct H as [e [<- He]].
    apply filter_In in He. destruct He as [_ He].
    rewrite !andb_true_iff, Nat.eqb_eq in He. tauto.
Qed.

Lemma prev_trigger_some : forall ppt ms prev st sc x c pc,
  prev_trigger ppt ms prev st sc x c = Some pc -> potential_b ppt ms pc x = true.
Proof.
  unfold prev_trigger. intros ppt ms prev st sc x c pc H.
  destruct (prev_get prev x) as [pc'|]; [|discriminate].
  destruct (mem_nat pc' (potentials ppt ms x)) eqn:E; [|discriminate].
  destruct (_ <? _); inversion H; subst. apply potentials_In, mem_nat_In, E.
Qed.

(* what one accepted `_reassign_partition_to_consumer(x, c')` + `_move_partition(q, c')` entry says *)
Lemma ctl_reassign_inv {ppt ms prev sc st mv x c' q s'} :
  ctl_reassign ppt ms prev sc (st, mv) (x, c', q) = Some s' ->
  is_balanced_b ppt ms st sc = false /\ movable_b ppt ms x = true /\
  exists c oq, owner st x = Some c /\ owner st q = Some oq /\
    match prev_trigger ppt ms prev st sc x c with
    | Some pc => pc = c'
    | None => gen_trigger ppt ms st x c = true /\
              least_loaded st (filter (fun o => potential_b ppt ms o x) sc) = Some c'
    end /\
    In q (candidates mv x c c') /\ In c' sc /\
    s' = (set_owner st q c', mv_move mv q oq c').
Proof.
  intros H. unfold ctl_reassign in H.
  destruct (is_balanced_b ppt ms st sc); [discriminate|].
  destruct (movable_b ppt ms x); [|discriminate]. cbn [negb] in H.
  destruct (owner st x) as [c|]; [|discriminate].
  destruct (_ && mem_tp q _ && mem_nat c' sc) eqn:G; [|discriminate].
  destruct (owner st q) as [oq|]; [|discriminate]. inversion H.
  rewrite !andb_true_iff, mem_tp_In, mem_nat_In in G. destruct G as [[Gt Gq] Gc].
  split; auto. split; auto. exists c, oq. repeat split; auto.
  destruct (prev_trigger ppt ms prev st sc x c) as [pc|].
  - apply Nat.eqb_eq, Gt.
  - apply andb_true_iff in Gt. destruct Gt as [Gg Gl]. split; auto. apply opt_nat_eqb_eq, Gl.
Qed.

(* ... in StickyAbs: a Move of q to a potential consumer of q.  [potential_b] sees a partition
   only through its topic and its existence: c' is a potential consumer of x (either trigger
   says so), q has x's topic ([candidates_topic]) and exists, having an owner in a sound state. *)
Lemma ctl_reassign_move {ppt ms prev sc st mv x c' q st' mv'} :
  sound ppt ms st -> ctl_reassign ppt ms prev sc (st, mv) (x, c', q) = Some (st', mv') ->
  owner st q <> None /\ potential_b ppt ms c' q = true /\ st' = set_owner st q c'.
Proof.
  intros [_ Hp] H.
  apply ctl_reassign_inv in H. destruct H as [_ [_ [c [oq [_ [Eq [Ht [Hq [_ E]]]]]]]]].
  inversion E; subst. split; [congruence|]. split; auto.
  assert (Hx : potential_b ppt ms c' x = true).
  { destruct (prev_trigger ppt ms prev st sc x c) as [pc|] eqn:Ep.
    - subst pc. eapply prev_trigger_some; eauto.
    - destruct Ht as [_ Ht]. apply least_loaded_In, filter_In in Ht. tauto. }
  specialize (Hp _ (owner_some_In _ _ _ Eq)). simpl in Hp.
  rewrite potential_b_iff in *. rewrite (candidates_topic _ _ _ _ _ Hq). tauto.
Qed.

Lemma ctl_reassigns_abs {ppt ms prev sc rs st mv st' mv'} sn :
  sound ppt ms st ->
  ctl_reassigns ppt ms prev sc (st, mv) rs = Some (st', mv') ->
  abs_run ppt ms (st, sn) (map (fun r => AMove (snd r) (snd (fst r))) rs) = Some (st', sn).
Proof.
  revert st mv. induction rs as [|[[x c'] q] rest IH]; intros st mv Hs H; cbn [ctl_reassigns] in H.
  - inversion H; auto.
  - destruct (ctl_reassign ppt ms prev sc (st, mv) (x, c', q)) as [[st1 mv1]|] eqn:E; [|discriminate].
    destruct (ctl_reassign_move Hs E) as [Ho [Hp ->]].
    cbn [map abs_run abs_step fst snd]. destruct (owner st q); [|congruence]. rewrite Hp.
    eapply IH; eauto. apply move_sound; auto.
Qed.

Lemma abs_run_app : forall ppt ms a b s s1,
  abs_run ppt ms s a = Some s1 -> abs_run ppt ms s (a ++ b) = abs_run ppt ms s1 b.
Proof.
  induction a as [|o r IH]; simpl; intros b s s1 H.
  - inversion H; auto.
  - destruct (abs_step ppt ms s o); [|discriminate]. apply IH; auto.
Qed.

(* what an accepted log establishes, whichever way its reassignment loop ended *)
Definition ctl_log (ppt : layout) (ms : members_t) (prev : prevmap) (st0 : triples)
  (assigns : list (tp * member)) (reassigns : list (tp * member * tp)) (obs : bool)
  (r : ctl_result) : Prop :=
  ctl_assigns ppt ms (drop ppt ms st0) assigns = Some (cr_prebalance r) /\
  complete_b ppt ms (cr_prebalance r) = true /\
  (exists mv, ctl_reassigns ppt ms prev (scope ppt ms (cr_prebalance r)) (cr_prebalance r, [])
                reassigns = Some (cr_balanced r, mv)) /\
  cr_reverted r = obs /\
  cr_final r = (if obs then cr_prebalance r else cr_balanced r).

Lemma ctl_run_inv {ppt ms prev st0 assigns reassigns obs r} :
  ctl_run ppt ms prev st0 assigns reassigns obs = Some r ->
  ctl_log ppt ms prev st0 assigns reassigns obs r /\
  end_ok ppt ms prev (scope ppt ms (cr_prebalance r)) (cr_balanced r) = true.
Proof.
  intros H. unfold ctl_run in H.
  destruct (ctl_assigns ppt ms (drop ppt ms st0) assigns) as [st2|] eqn:E2; [|discriminate].
  destruct (complete_b ppt ms st2) eqn:Ec; simpl in H; [|discriminate].
  destruct (ctl_reassigns ppt ms prev (scope ppt ms st2) (st2, []) reassigns) as [[st3 mv]|] eqn:E3;
    [|discriminate].
  destruct (end_ok ppt ms prev (scope ppt ms st2) st3) eqn:Ee; simpl in H; [|discriminate].
  destruct (Bool.eqb obs _); [|discriminate].
  inversion H; subst; simpl. repeat split; eauto.
Qed.

(* The states of an accepted log after the assign loop and after the reassignment loop are sound
   (each phase is a StickyAbs run: Drop and Assigns from the start, Moves from there), and with
   distinct member ids the three states of the result are valid. *)
Lemma ctl_log_sound_valid {ppt ms prev st0 assigns reassigns obs r} :
  NoDup (map snd st0) -> ctl_log ppt ms prev st0 assigns reassigns obs r ->
  sound ppt ms (cr_prebalance r) /\ sound ppt ms (cr_balanced r) /\
  (ids_nodup ms ->
   valid ppt ms (cr_final r) /\ valid ppt ms (cr_prebalance r) /\ valid ppt ms (cr_balanced r)).
Proof.
  intros Hn [E2 [Ec [[mv E3] [_ Ef]]]].
  pose proof (abs_run_sound (drop_sound ppt ms st0 Hn) (ctl_assigns_abs None E2)) as Hs2.
  pose proof (ctl_reassigns_abs None Hs2 E3) as A3.
  pose proof (abs_run_sound Hs2 A3) as Hs3.
  split; [exact Hs2|]. split; [exact Hs3|]. intros Hi.
  apply complete_b_spec in Ec; auto.
  assert (Hc3 : complete ppt ms (cr_balanced r)).
  { refine (proj1 (abs_run_cinv _ _ _ _ _ _ (abs_lift_none Ec) A3)).
    apply Forall_forall. intros o Ho. apply in_map_iff in Ho. destruct Ho as [? [<- _]]. exact I. }
  pose proof (sound_complete_valid _ _ _ Hi Hs2 Ec) as V2.
  pose proof (sound_complete_valid _ _ _ Hi Hs3 Hc3) as V3.
  rewrite Ef. destruct obs; auto.
Qed.

Lemma ctl_log_abs_run {ppt ms prev st0 assigns reassigns obs r} :
  NoDup (map snd st0) -> ctl_log ppt ms prev st0 assigns reassigns obs r ->
  abs_run ppt ms (st0, None) (ctl_aops assigns reassigns (cr_reverted r))
  = Some (cr_final r, Some (cr_prebalance r)).
Proof.
  intros Hn L.
  destruct (ctl_log_sound_valid Hn L) as [Hs2 _]. destruct L as [E2 [_ [[mv E3] [Er Ef]]]].
  unfold ctl_aops. simpl.
  rewrite (abs_run_app _ _ _ _ _ _ (ctl_assigns_abs None E2)). simpl.
  rewrite (abs_run_app _ _ _ _ _ _ (ctl_reassigns_abs (Some (cr_prebalance r)) Hs2 E3)).
  rewrite Er, Ef. destruct obs; reflexivity.
Qed.

Lemma least_loaded_none : forall st cs, least_loaded st cs = None -> cs = [].
Proof.
  intros st [|a r] H; auto. simpl in H.
  destruct (least_loaded st r) as [b|]; [destruct (less_loaded st b a)|]; discriminate.
Qed.

Theorem assign_loop_complete : forall ppt ms xs st, ids_nodup ms ->
  (forall x, assignable ppt ms x -> (exists m, In (m, x) st) \/ In x xs) ->
  complete ppt ms (assign_loop ppt ms st xs).
Proof.
  induction xs as [|x r IH]; simpl; intros st Hi H.
  - intros y Hy. destruct (H y Hy) as [Ho|[]]. auto.
  - destruct (owner st x) as [m|] eqn:Eo.
    + apply IH; auto. intros y Hy. destruct (H y Hy) as [Ho|[->|Hin]]; auto.
      left. exists m. apply owner_some_In; auto.
    + destruct (least_loaded st (potentials ppt ms x)) as [c|] eqn:El.
      * apply IH; auto. intros y Hy. destruct (H y Hy) as [[m Hm]|[->|Hin]]; auto.
        -- left. exists m. apply in_app_iff; auto.
        -- left. exists c. apply in_app_iff. right. simpl; auto.
      * apply IH; auto. intros y Hy. destruct (H y Hy) as [Ho|[->|Hin]]; auto.
        exfalso. apply potentials_nonempty in Hy; auto. apply Hy, (least_loaded_none _ _ El).
Qed.

Lemma assign_loop_is_ctl : forall ppt ms xs st,
  exists l, ctl_assigns ppt ms st l = Some (assign_loop ppt ms st xs).
Proof.
  induction xs as [|x r IH]; simpl; intros st.
  - exists []. reflexivity.
  - destruct (owner st x) as [m|] eqn:Eo; [apply IH|].
    destruct (least_loaded st (potentials ppt ms x)) as [c|] eqn:El; [|apply IH].
    destruct (IH (st ++ [(c, x)])) as [l Hl]. exists ((x, c) :: l). simpl.
    rewrite Eo, El. simpl. rewrite Nat.eqb_refl. exact Hl.
Qed.

(* C09_varint_cy.v — the models of the compiled varint functions (_crecords/cutil.pyx, uint64
   arithmetic) agree with the specification. *)
From Coq Require Import ZArith List Bool Lia ZifyBool.
From Verif Require Import Bits C09Bytes C09_Varint C09_varint.
Import ListNotations.
Open Scope Z_scope.
Ltac Zify.zify_post_hook ::= Z.to_euclidean_division_equations.

Lemma cy_zigzag_spec v : int64 v -> cy_zigzag v = zigzag v.
Proof.
  intros H. unfold cy_zigzag, u64. change TWO64 with (2 ^ 64).
  rewrite <- lxor_mod_pow2 by lia. rewrite zigzag_bits by exact H.
  apply Z.mod_small, zigzag_range, H.
Qed.

(* v & 0xffffffffffffff80 are the bits above the low seven: u / 128 * 128 *)
Lemma land_high_test u : 0 <= u < TWO64 -> negb (Z.land u 18446744073709551488 =? 0) = negb (u <? 128).
Proof.
  unfold TWO64. intros Hu.
  change 18446744073709551488 with (Z.land (Z.ones 64) (Z.lnot (Z.ones 7))).
  rewrite Z.land_assoc, Z.land_ones, Z.mod_small by (change (2 ^ 64) with 18446744073709551616; lia).
  rewrite <- Z.ldiff_land, Z.ldiff_ones_r, shiftr_div, shiftl_mul by lia.
  change (2 ^ 7) with 128. f_equal. lia.
Qed.

Lemma cy_enc_loop_spec : forall f u, 0 <= u < 128 ^ Z.of_nat f -> (0 < f)%nat ->
  forall g, (f <= g)%nat -> u < TWO64 -> cy_enc_loop g u = leb_enc f u.
Proof.
  refine (leb_groups_ind _ _ _).
  - intros f u Hu [|g] Hg H64; [lia|].
    cbn [cy_enc_loop]. rewrite land_high_test by lia. replace (u <? 128) with true by lia.
    rewrite leb_enc_small, land_127, Z.mod_small by lia. reflexivity.
  - intros f u Hu Hq Hf IH [|g] Hg H64; [lia|].
    cbn [cy_enc_loop]. rewrite land_high_test by lia. replace (u <? 128) with false by lia.
    cbn [negb]. rewrite leb_enc_big, Z.lor_comm, lor128_land, shiftr7 by lia.
    rewrite IH by (unfold TWO64 in *; lia). reflexivity.
Qed.

Theorem cy_encode_spec v : int64 v -> cy_encode_varint64 v = varint_enc v.
Proof.
  intros H. unfold cy_encode_varint64. rewrite cy_zigzag_spec by exact H.
  apply cy_enc_loop_spec; try apply zigzag_fits; try apply zigzag_range; trivial; lia.
Qed.

Lemma cy_size_loop_spec : forall f u, 0 <= u < 128 ^ Z.of_nat f -> (0 < f)%nat ->
  forall g n, (f <= g)%nat -> u < TWO64 -> cy_size_loop g u n = n + leb_size f u - 1.
Proof.
  refine (leb_groups_ind _ _ _).
  - intros f u Hu [|g] n Hg H64; [lia|].
    cbn [cy_size_loop leb_size]. rewrite land_high_test by lia.
    replace (u <? 128) with true by lia. cbn [negb]. lia.
  - intros f u Hu Hq Hf IH [|g] n Hg H64; [lia|].
    cbn [cy_size_loop leb_size]. rewrite land_high_test by lia.
    replace (u <? 128) with false by lia. cbn [negb].
    rewrite shiftr7, IH by (unfold TWO64 in *; lia). lia.
Qed.

Theorem cy_size_spec v : int64 v -> cy_size_of_varint64 v = varint_size v.
Proof.
  intros H. unfold cy_size_of_varint64, varint_size. rewrite cy_zigzag_spec by exact H.
  rewrite (cy_size_loop_spec 10) by (try apply zigzag_fits; try apply zigzag_range; trivial; lia).
  lia.
Qed.

Lemma schar_bit7 b : 0 <= b < 256 -> (Z.land (schar b) 128 =? 0) = (b <? 128).
Proof. revert b. apply (byte_cases (fun b => Z.land (schar b) 128 =? 0)). vm_compute. reflexivity. Qed.

(* 70 = 7 bits x 10 groups, as in [dec_loop]: the test `shift > 63` stays false before the last group *)
Lemma cy_dec_loop_spec : forall f u, 0 <= u < 128 ^ Z.of_nat f -> (0 < f)%nat ->
  forall rest shift acc fuel, (f <= fuel)%nat ->
  0 <= shift -> shift + 7 * Z.of_nat f <= 70 -> 0 <= acc < 2 ^ shift -> acc + u * 2 ^ shift < TWO64 ->
  cy_dec_loop fuel (leb_enc f u ++ rest) shift acc = Some (acc + u * 2 ^ shift, rest).
Proof.
  refine (leb_groups_ind _ _ _).
  - intros f u Hu rest shift acc [|fuel] Hfuel Hs Hs70 Hacc Htot; [lia|].
    assert (HM : 0 < 2 ^ shift) by (apply Z.pow_pos_nonneg; lia).
    rewrite leb_enc_small by lia. cbn [app cy_dec_loop].
    rewrite schar_bit7 by lia. unfold schar. replace (u <? 128) with true by lia. cbn [negb].
    unfold u64. rewrite (Z.mod_small u) by (unfold TWO64; lia).
    rewrite shiftl_mul by lia. rewrite Z.mod_small by (unfold TWO64 in *; nia).
    rewrite lor_low_high by lia. reflexivity.
  - intros f u Hu Hq Hf IH rest shift acc [|fuel] Hfuel Hs Hs70 Hacc Htot; [lia|].
    assert (HM : 0 < 2 ^ shift) by (apply Z.pow_pos_nonneg; lia).
    destruct (group_step acc u shift) as [Hsum Hacc']; try lia.
    rewrite leb_enc_big by lia. cbn [app cy_dec_loop].
    rewrite schar_bit7 by lia. unfold schar.
    replace (128 + u mod 128 <? 128) with false by lia. cbn [negb].
    replace (63 <? shift + 7) with false by lia.
    rewrite land_127. replace ((128 + u mod 128 - 256) mod 128) with (u mod 128) by lia.
    unfold u64. rewrite (Z.mod_small (u mod 128)) by (unfold TWO64; lia).
    rewrite shiftl_mul by lia.
    rewrite Z.mod_small by (unfold TWO64 in *; nia).
    rewrite lor_low_high by lia.
    rewrite IH, Hsum by lia. reflexivity.
Qed.

Lemma s64_small x : 0 <= x < 9223372036854775808 -> s64 x = x.
Proof. unfold s64, TWO64. intros H. rewrite Z.mod_small by lia. lia. Qed.

Theorem cy_decode_spec v rest : int64 v -> cy_decode_varint64 (varint_enc v ++ rest) = Some (v, rest).
Proof.
  intros H. pose proof (zigzag_range v H) as Hr. unfold TWO64 in Hr.
  unfold cy_decode_varint64, varint_enc.
  rewrite (cy_dec_loop_spec 10)
    by (try apply zigzag_fits; trivial; unfold TWO64; change (2 ^ 0) with 1; lia).
  change (2 ^ 0) with 1. rewrite Z.add_0_l, Z.mul_1_r.
  set (u := zigzag v) in *.
  assert (Hl : Z.land u 1 = u mod 2).
  { change (Z.land u 1) with (Z.land u (Z.ones 1)). rewrite Z.land_ones by lia. reflexivity. }
  assert (Hsr : Z.shiftr u 1 = u / 2) by (rewrite shiftr_div by lia; reflexivity).
  rewrite (s64_small (Z.shiftr u 1)) by (rewrite Hsr; lia).
  rewrite (s64_small (Z.land u 1)) by (rewrite Hl; lia).
  rewrite unzigzag_bits by lia. subst u. rewrite unzigzag_zigzag. reflexivity.
Qed.

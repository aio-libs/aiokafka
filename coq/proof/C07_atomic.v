(* C07_atomic.v — atomicity of application transactions in model/C07_Txn.v, on every trace on which the client
   obligations (C07_Txn.ob) hold: [sinv] per instance (no assumption), [linv] = [oinv] /\ [hinv] global and under
   the obligations; c07_atomic (props/C07.v) is read off [hinv]. *)
From Coq Require Import ZArith List Bool Arith Lia.
From Verif Require Import Imp TxnTable C16_TxnApi C07_Txn C07_client C07_env.
Import ListNotations.
Local Open Scope nat_scope.   (* C16_TxnApi leaves Z_scope open *)

Definition cl (s : gstate) (i : nat) : option client := nth_error (clients s) i.

Definition step_ob (s : gstate) (e : event) : option gstate :=
  match ob s e with Some _ => None | None => step s e end.

Lemma run_ob_cons s e tr : run_ob s (e :: tr) = match step_ob s e with Some s' => run_ob s' tr | None => None end.
Proof. unfold step_ob. simpl. destruct (ob s e); reflexivity. Qed.

(* s_13: when the EndTxn of a commit has been applied, csent is set;
   s_15: as long as the application has not asked to end, the task is not EndTxn;
   s_16: and csent is not set *)
Record sinv (c : client) : Prop := {
  s_13 : slot c = Some (KEnd, SApplied) -> cst c = COMMITTING -> csent c = true;
  s_15 : cst c = IN_TXN \/ cst c = UNINIT \/ cst c = ABORTABLE -> forall st, slot c <> Some (KEnd, st);
  s_16 : csent c = true -> cst c <> IN_TXN /\ cst c <> UNINIT
}.
Definition gsinv (s : gstate) : Prop := Forall sinv (clients s).

Lemma sinv_same c c' : sinv c -> cst c' = cst c -> slot c' = slot c -> csent c' = csent c -> sinv c'.
Proof. intros [A B C] H1 H2 H3. constructor; rewrite ?H1, ?H2, ?H3; auto. Qed.

Lemma sinv_client0 : sinv client0.
Proof. constructor; simpl; intros; discriminate. Qed.

Lemma next_kind_end c : next_kind c = Some KEnd -> cst c = COMMITTING \/ cst c = ABORTING.
Proof.
  unfold next_kind. destruct (negb (is_niln (pend_parts c))); [discriminate|].
  destruct (negb (is_niln (pend_offs c))); [destruct (grp c); discriminate|].
  destruct (cst c); intros H; try discriminate; auto.
Qed.

(* in these states the clauses hold whatever the slot and the flag are *)
Lemma sinv_quiet c : cst c = READY \/ cst c = ABORTING \/ cst c = FATAL -> sinv c.
Proof.
  intros K. constructor.
  - intros _ S. destruct K as [K|[K|K]]; congruence.
  - intros S. exfalso. destruct K as [K|[K|K]], S as [S|[S|S]]; congruence.
  - intros _. split; intros S; destruct K as [K|[K|K]]; congruence.
Qed.

Lemma cstep_sinv i en c e c' en' o : cstep i en c e c' en' o -> sinv c -> sinv c'.
Proof.
  intros CS SI. pose proof SI as [A B C].
  destruct CS; try (apply (sinv_same c); [exact SI | reflexivity ..]).
  - (* cs_start *) apply sinv_quiet. auto.
  - (* cs_begin *) constructor; simpl; try discriminate. rewrite Sl. discriminate.
  - (* cs_committing *) constructor; simpl.
    + intros K _. destruct (B (or_introl St) _ K).
    + intros [K|[K|K]]; discriminate.
    + intros K. destruct (C K). contradiction.
  - (* cs_aborting *) apply sinv_quiet. auto.
  - (* cs_complete *) apply sinv_quiet. auto.
  - (* cs_error *) constructor; simpl.
    + discriminate.
    + intros _ st' K. congruence.
    + split; discriminate.
  - (* cs_fatal *) apply sinv_quiet. auto.
  - (* cs_pick *) constructor; simpl.
    + discriminate.
    + intros K st' [= -> _]. destruct (next_kind_end _ Nx), K as [K|[K|K]]; congruence.
    + exact C.
  - (* cs_done *) constructor; simpl; [discriminate | discriminate | exact C].
  - (* cs_refused *) constructor; simpl.
    + discriminate.
    + intros K st' [= -> _]. exact (B K _ Sl).
    + exact C.
  - (* cs_add_parts *) constructor; simpl; [discriminate | discriminate | exact C].
  - (* cs_add_offs *) constructor; simpl; [discriminate | discriminate | exact C].
  - (* cs_toc *) constructor; simpl; [discriminate | discriminate | exact C].
  - (* cs_end *) destruct Er as (_ & _ & _ & _ & _ & St). constructor; simpl.
    + intros _ K. destruct St as [(_ & ->)|(K2 & _)]; [apply orb_true_r | congruence].
    + intros K. exfalso. destruct St as [(K2 & _)|(K2 & _)], K as [K|[K|K]]; congruence.
    + intros _. destruct St as [(K2 & _)|(K2 & _)]; rewrite K2; split; discriminate.
Qed.

Definition ongoing_or_prep (e : env) : Prop := est e = EOngoing \/ exists c, est e = EPrep c.
Definition ended_committed (s : gstate) (tg : tag) : Prop := exists acc, In (tg, OCommitted, acc) (ended s).
(* v(isible) o(r) p(ending): in the view, or in the open part while the commit marker of its transaction is
   being written *)
Definition vop (s : gstate) (tg : tag) (x p : nat) : Prop :=
  In (tg, x) (rc_view_t (log_of p (glog (genv s)))) \/
  (In (tg, x) (rc_open_t (log_of p (glog (genv s)))) /\ est (genv s) = EPrep true /\
   eowner (genv s) = Some tg /\ In p (eparts (genv s))).
(* the application knows (commit returned) or may still learn (EndTxn(commit) was applied) *)
Definition commit_known (s : gstate) (i k : nat) : Prop :=
  (exists c, cl s i = Some c /\ k = kcur c /\ csent c = true) \/ ended_committed s (i, k).
Definition last_done (l : list (option tag * bool)) : option (option tag * bool) :=
  match rev l with x :: _ => Some x | [] => None end.

(* the coordinator's open transaction: the application transaction that owns it, and what of it is in the logs.
   l_E1: with no transaction open (Empty, Complete) nothing is registered and there is no owner;
   l_E2: what is open in a log (written, no marker yet) was written by the owner to a registered partition, and
         the coordinator is Ongoing or preparing;
   l_E5: after the markers (Complete) the last ended coordinator transaction carries that result;
   l_12: the owner is a transaction of an existing instance, not a future one;
   l_11: the instance whose current transaction owns the coordinator's has marked itself (cowned);
   l_10: an instance that has opened no coordinator transaction in its current transaction has had nothing
         appended;
   l_2:  while the coordinator is Ongoing for the current transaction of an instance, all that the brokers
         appended for it is open in the log of a registered partition *)
Record oinv (s : gstate) : Prop := {
  l_E1 : est (genv s) = EEmpty \/ (exists c, est (genv s) = EDone c) ->
         eparts (genv s) = [] /\ eowner (genv s) = None;
  l_E2 : forall p tg x, In (tg, x) (rc_open_t (log_of p (glog (genv s)))) ->
         ongoing_or_prep (genv s) /\ eowner (genv s) = Some tg /\ In p (eparts (genv s));
  l_E5 : forall c0, est (genv s) = EDone c0 -> exists o, last_done (edone (genv s)) = Some (o, c0);
  l_12 : forall i k, eowner (genv s) = Some (i, k) -> exists c, cl s i = Some c /\ k <= kcur c;
  l_11 : forall i c, cl s i = Some c -> eowner (genv s) = Some (i, kcur c) -> cowned c = true;
  l_10 : forall i c, cl s i = Some c -> cowned c = false -> capp c = [];
  l_2 : forall i c, cl s i = Some c -> eowner (genv s) = Some (i, kcur c) -> est (genv s) = EOngoing ->
        forall x p, In (x, p) (capp c) ->
        In ((i, kcur c), x) (rc_open_t (log_of p (glog (genv s)))) /\ In p (eparts (genv s))
}.

(* application transaction k of instance c is over *)
Definition past (k : nat) (c : client) : Prop :=
  k < kcur c \/ (k = kcur c /\ (cst c = READY \/ cst c = FATAL)).

(* what is visible, what has ended, which commits are known.
   l_E3: what is visible was written by the owner of a coordinator transaction that ended committed;
   l_1:  once EndTxn(commit) was applied for the current transaction of an instance, all it accepted is visible
         or pending;
   l_5, l_6: the commit of the owner is known while the coordinator prepares a commit, and after it;
   l_8:  an ended transaction belongs to an existing instance and is over there ([past]);
   l_9:  READY with csent still set: the current transaction has ended committed;
   l_7:  a transaction that ended aborted has not also ended committed, and while it is the current one csent is
         clear;
   l_14: all that a transaction which ended committed had accepted is visible or pending *)
Record hinv (s : gstate) : Prop := {
  l_E3 : forall p tg x, In (tg, x) (rc_view_t (log_of p (glog (genv s)))) -> In (Some tg, true) (edone (genv s));
  l_1 : forall i c, cl s i = Some c -> csent c = true ->
        forall x p, In (x, p) (accepted c) -> vop s (i, kcur c) x p;
  l_5 : forall i k, eowner (genv s) = Some (i, k) -> est (genv s) = EPrep true -> commit_known s i k;
  l_6 : forall i k, In (Some (i, k), true) (edone (genv s)) -> commit_known s i k;
  l_8 : forall i k o acc, In ((i, k), o, acc) (ended s) -> exists c, cl s i = Some c /\ past k c;
  l_9 : forall i c, cl s i = Some c -> csent c = true -> cst c = READY -> ended_committed s (i, kcur c);
  l_7 : forall i k acc, In ((i, k), OAborted, acc) (ended s) ->
        ~ ended_committed s (i, k) /\ (forall c, cl s i = Some c -> k = kcur c -> csent c = false);
  l_14 : forall i k acc, In ((i, k), OCommitted, acc) (ended s) ->
         forall x p, In (x, p) acc -> vop s (i, k) x p
}.

Definition linv (s : gstate) : Prop := oinv s /\ hinv s.

(* instance i is replaced by c', the environment by en', the ended transactions by ed' *)
Section Update.
  Variables (s : gstate) (i : nat) (c c' : client) (en' : env) (ed' : list (tag * outcome * list (nat * nat))).
  Hypothesis Hc : cl s i = Some c.
  Let s' := mkG (set_nth i c' (clients s)) en' ed'.

  Lemma cl_upd_eq : cl s' i = Some c'.
  Proof. exact (nth_set_nth_eq _ _ _ _ Hc). Qed.

  Lemma cl_upd_inv j d : cl s' j = Some d -> j = i /\ d = c' \/ j <> i /\ cl s j = Some d.
  Proof.
    unfold cl, s'. simpl. intros A. destruct (Nat.eq_dec j i) as [->|N].
    - rewrite (nth_set_nth_eq _ _ _ _ Hc) in A. injection A as <-. auto.
    - rewrite nth_set_nth_neq in A by auto. auto.
  Qed.

  Lemma cl_upd_ex j d : cl s j = Some d ->
    exists d', cl s' j = Some d' /\ (j = i /\ d = c /\ d' = c' \/ j <> i /\ d' = d).
  Proof.
    unfold cl, s'. simpl. intros A. destruct (Nat.eq_dec j i) as [->|N].
    - exists c'. split; [exact (nth_set_nth_eq _ _ _ _ Hc)|]. left. unfold cl in Hc. split; [|split]; congruence.
    - exists d. rewrite nth_set_nth_neq by auto. auto.
  Qed.

  Lemma cl_upd_some (Q : client -> Prop) j :
    (j = i -> Q c -> Q c') -> (exists d, cl s j = Some d /\ Q d) -> exists d, cl s' j = Some d /\ Q d.
  Proof. intros F (d & A & B). destruct (cl_upd_ex _ _ A) as (d' & A' & [(-> & -> & ->)|(N & ->)]); eauto. Qed.

  (* a commit that is known stays known: the flag is kept, or the transaction has ended committed *)
  Lemma commit_known_upd :
    incl (ended s) ed' ->
    (csent c = true -> kcur c' = kcur c /\ csent c' = true \/ ended_committed s' (i, kcur c)) ->
    forall j k, commit_known s j k -> commit_known s' j k.
  Proof.
    intros Hed Hs j k [(d & A & B & C)|(acc & A)]; [|right; exists acc; apply Hed; exact A].
    destruct (cl_upd_ex _ _ A) as (d' & A' & [(-> & -> & ->)|(N & ->)]).
    - destruct (Hs C) as [(K1 & K2)|K]; [left; exists c'; split; [exact A' | split; congruence] | right; congruence].
    - left. exists d. auto.
  Qed.
End Update.

Lemma hinv_not_ended s i c : hinv s -> cl s i = Some c -> cst c <> READY -> cst c <> FATAL ->
  forall o acc, ~ In ((i, kcur c), o, acc) (ended s).
Proof.
  intros L Hc N1 N2 o acc K. destruct (l_8 _ L _ _ _ _ K) as (c0 & A & B). rewrite Hc in A. injection A as <-.
  destruct B as [B|(_ & [B|B])]; [lia | contradiction | contradiction].
Qed.

Lemma oinv_upd_client s i c c' ed' :
  cl s i = Some c -> oinv s -> kcur c' = kcur c -> cowned c' = cowned c -> capp c' = capp c ->
  oinv (mkG (set_nth i c' (clients s)) (genv s) ed').
Proof.
  intros Hc [E1 E2 E5 L12 L11 L10 L2] Hk Ho Ha.
  pose proof (cl_upd_inv s i c c' (genv s) ed' Hc) as Up.
  constructor; simpl; [exact E1 | exact E2 | exact E5 | ..].
  - intros j k K. apply (cl_upd_some s i c c' _ _ Hc (fun d => k <= kcur d)); [lia | auto].
  - intros j d A B. destruct (Up _ _ A) as [(-> & ->)|(N & A')]; [|eauto].
    rewrite Ho. apply (L11 i c Hc). congruence.
  - intros j d A B. destruct (Up _ _ A) as [(-> & ->)|(N & A')]; [|eauto].
    rewrite Ha. apply (L10 i c Hc). congruence.
  - intros j d A B C. destruct (Up _ _ A) as [(-> & ->)|(N & A')]; [|eauto].
    rewrite Ha, Hk. apply (L2 i c Hc); congruence.
Qed.

(* the transaction index and the flag stay; accepted may grow while no commit was sent; the state may change, but
   does not leave READY / FATAL for another state and reaches READY only from UNINITIALIZED *)
Lemma hinv_upd_client s i c c' :
  cl s i = Some c -> sinv c -> hinv s ->
  kcur c' = kcur c -> csent c' = csent c -> accepted c' = accepted c \/ csent c = false ->
  (cst c = READY \/ cst c = FATAL -> cst c' = READY \/ cst c' = FATAL) ->
  (cst c' = READY -> cst c = READY \/ cst c = UNINIT) ->
  hinv (mkG (set_nth i c' (clients s)) (genv s) (ended s)).
Proof.
  intros Hc Si [E3 L1 L5 L6 L8 L9 L7 L14] Hk Hs Hacc H8 H9.
  pose proof (cl_upd_inv s i c c' (genv s) (ended s) Hc) as Up.
  assert (CK : forall j k, commit_known s j k -> commit_known (mkG (set_nth i c' (clients s)) (genv s) (ended s)) j k).
  { apply (commit_known_upd s i c c' _ _ Hc); [apply incl_refl | intros K; left; split; congruence]. }
  constructor; simpl; [exact E3 | ..].
  - intros j d A B x p C. destruct (Up _ _ A) as [(-> & ->)|(N & A')]; [|exact (L1 j d A' B x p C)].
    rewrite Hk. apply (L1 i c Hc); [congruence|]. destruct Hacc as [K|K]; [rewrite <- K; exact C | congruence].
  - intros j k A B. apply CK. eauto.
  - intros j k A. apply CK. eauto.
  - intros j k o acc A.
    apply (cl_upd_some s i c c' _ _ Hc (past k)); [|eauto].
    unfold past. rewrite Hk. intros _ [C|(C1 & C2)]; auto.
  - intros j d A B C. destruct (Up _ _ A) as [(-> & ->)|(N & A')]; [|exact (L9 j d A' B C)].
    rewrite Hk. apply (L9 i c Hc); [congruence|]. destruct (H9 C) as [K|K]; [exact K|].
    destruct (s_16 _ Si) as (_ & K3); congruence.
  - intros j k acc A. destruct (L7 _ _ _ A) as (B & C). split; [exact B|].
    intros d D F. destruct (Up _ _ D) as [(-> & ->)|(N & D')]; [|eauto]. rewrite Hs. apply (C c Hc). congruence.
  - exact L14.
Qed.

Lemma linv_upd_client s i c c' :
  cl s i = Some c -> sinv c -> linv s ->
  kcur c' = kcur c -> csent c' = csent c -> cowned c' = cowned c -> capp c' = capp c ->
  accepted c' = accepted c \/ csent c = false ->
  (cst c = READY \/ cst c = FATAL -> cst c' = READY \/ cst c' = FATAL) ->
  (cst c' = READY -> cst c = READY \/ cst c = UNINIT) ->
  linv (mkG (set_nth i c' (clients s)) (genv s) (ended s)).
Proof. intros Hc Si [O H]. split; [apply (oinv_upd_client s i c) | apply (hinv_upd_client s i c)]; auto. Qed.

Lemma vop_view_only s s' tg x p :
  (forall q y, In y (rc_view_t (log_of q (glog (genv s)))) -> In y (rc_view_t (log_of q (glog (genv s'))))) ->
  est (genv s) <> EPrep true -> vop s tg x p -> vop s' tg x p.
Proof. intros V N [H|(_ & H & _)]; [left; auto | congruence]. Qed.

Lemma hinv_env s en' :
  est (genv s) <> EPrep true -> est en' <> EPrep true -> edone en' = edone (genv s) ->
  (forall p, rc_view_t (log_of p (glog en')) = rc_view_t (log_of p (glog (genv s)))) ->
  hinv s -> hinv (put_env s en').
Proof.
  intros N N' Ed Vw [E3 L1 L5 L6 L8 L9 L7 L14].
  assert (V : forall tg x p, vop s tg x p -> vop (put_env s en') tg x p).
  { intros tg x p. apply vop_view_only; [|exact N]. intros q y. simpl. rewrite Vw. auto. }
  constructor; simpl; rewrite ?Ed; auto.
  - intros p tg x. rewrite Vw. apply E3.
  - intros j k _ K. contradiction.
  - intros j k acc A x p B. apply V. eauto.
Qed.

(* InitProducerId met an Ongoing transaction, or EndTxn was applied *)
Lemma oinv_prep s b ep : est (genv s) = EOngoing -> oinv s -> oinv (put_env s (env_st (genv s) (EPrep b) ep)).
Proof.
  intros Es [E1 E2 E5 L12 L11 L10 L2]. constructor; simpl; auto; try discriminate.
  - intros [K|(c & K)]; discriminate.
  - intros p tg x K. destruct (E2 _ _ _ K) as (_ & A & B). split; [right; exists b; reflexivity | auto].
Qed.

Lemma linv_fence s :
  est (genv s) = EOngoing -> linv s -> linv (put_env s (env_st (genv s) (EPrep false) (S (eep (genv s))))).
Proof.
  intros Es [O H]. split; [apply oinv_prep; assumption|].
  apply hinv_env; auto; [congruence | discriminate].
Qed.

Lemma last_done_snoc l x : last_done (l ++ [x]) = Some x.
Proof. unfold last_done. rewrite rev_app_distr. reflexivity. Qed.

Lemma commit_known_same s s' i k :
  clients s' = clients s -> ended s' = ended s -> commit_known s i k -> commit_known s' i k.
Proof. unfold commit_known, ended_committed, cl. intros -> ->. auto. Qed.

Lemma vop_markers s tg x p c0 :
  est (genv s) = EPrep c0 -> vop s tg x p ->
  In (tg, x) (rc_view_t (log_of p (glog (genv s) ++ markers (eparts (genv s)) (eep (genv s)) c0))).
Proof.
  intros Es [K|(K1 & K2 & K3 & K4)]; rewrite view_markers.
  - destruct (memn p (eparts (genv s)) && c0); [apply in_or_app; auto | exact K].
  - rewrite Es in K2. inversion K2; subst c0. apply memn_In in K4. rewrite K4. simpl. apply in_or_app. auto.
Qed.

Lemma linv_markers s c0 :
  est (genv s) = EPrep c0 -> linv s ->
  linv (put_env s (mkE (EDone c0) (eep (genv s)) (einit (genv s)) (eissued (genv s)) []
                       (glog (genv s) ++ markers (eparts (genv s)) (eep (genv s)) c0)
                       None (edone (genv s) ++ [(eowner (genv s), c0)]))).
Proof.
  intros Es [[E1 E2 E5 L12 L11 L10 L2] [E3 L1 L5 L6 L8 L9 L7 L14]].
  set (s' := put_env s _).
  assert (V : forall tg x p, vop s tg x p -> vop s' tg x p).
  { intros tg x p K. left. exact (vop_markers s tg x p c0 Es K). }
  split; constructor; unfold s'; simpl; auto; try discriminate.
  - intros p tg x K. rewrite open_markers in K. destruct (memn p (eparts (genv s))) eqn:M; [destruct K|].
    destruct (E2 _ _ _ K) as (_ & _ & B). apply memn_In in B. congruence.
  - intros c1 K. inversion K; subst. eexists. apply last_done_snoc.
  - intros p tg x K. rewrite view_markers in K. apply in_or_app.
    destruct (memn p (eparts (genv s)) && c0) eqn:M.
    + apply in_app_or in K. destruct K as [K|K]; [left; eauto|].
      apply andb_prop in M. destruct M as [_ M]. subst c0. right. left.
      destruct (E2 _ _ _ K) as (_ & A & _). rewrite A. reflexivity.
    + left. eauto.
  - intros i k K. apply in_app_or in K. destruct K as [K|[K|[]]].
    + apply (commit_known_same s); auto.
    + inversion K; subst. apply (commit_known_same s); auto.
  - intros i k acc A x p B. apply V. eauto.
Qed.

Lemma linv_initok s ep :
  est (genv s) = EEmpty \/ (exists c, est (genv s) = EDone c) -> linv s ->
  linv (put_env s (mkE EEmpty ep true (ep :: eissued (genv s)) [] (glog (genv s)) None (edone (genv s)))).
Proof.
  intros Es [[E1 E2 E5 L12 L11 L10 L2] H].
  assert (NP : est (genv s) <> EPrep true) by (destruct Es as [K|(c & K)]; congruence).
  split; [|apply hinv_env; auto; discriminate].
  constructor; simpl; auto; try discriminate.
  intros p tg x K. destruct (E2 _ _ _ K) as ([A|(c & A)] & _); destruct Es as [B|(c' & B)]; congruence.
Qed.

Lemma linv_begin s i c :
  cl s i = Some c -> cst c = READY -> linv s ->
  linv (mkG (set_nth i (new_txn c IN_TXN) (clients s)) (genv s) (ended s)).
Proof.
  intros Hc R [[E1 E2 E5 L12 L11 L10 L2] [E3 L1 L5 L6 L8 L9 L7 L14]].
  set (c' := new_txn c IN_TXN). set (s' := mkG _ _ _).
  pose proof (cl_upd_inv s i c c' (genv s) (ended s) Hc) as Up.
  assert (CK : forall j k, commit_known s j k -> commit_known s' j k).
  { apply (commit_known_upd s i c c' _ _ Hc); [apply incl_refl | intros K; right; apply (L9 i c); auto]. }
  assert (NoOwn : eowner (genv s) <> Some (i, S (kcur c))).
  { intros K. destruct (L12 _ _ K) as (d & A & B). rewrite Hc in A. injection A as <-. lia. }
  split; constructor; simpl; try assumption.
  - intros j k K. apply (cl_upd_some s i c c' _ _ Hc (fun d => k <= kcur d)); [simpl; lia | auto].
  - intros j d A B. destruct (Up _ _ A) as [(-> & ->)|(N & A')]; [contradiction | eauto].
  - intros j d A B. destruct (Up _ _ A) as [(-> & ->)|(N & A')]; [reflexivity | eauto].
  - intros j d A B C. destruct (Up _ _ A) as [(-> & ->)|(N & A')]; [contradiction | eauto].
  - intros j d A B x p C. destruct (Up _ _ A) as [(-> & ->)|(N & A')]; [discriminate | exact (L1 j d A' B x p C)].
  - intros j k A B. apply CK. eauto.
  - intros j k A. apply CK. eauto.
  - intros j k o acc A.
    apply (cl_upd_some s i c c' _ _ Hc (past k)); [|eauto].
    unfold past. simpl. intros _ [C|(C1 & C2)]; lia.
  - intros j d A B C. destruct (Up _ _ A) as [(-> & ->)|(N & A')]; [discriminate | exact (L9 j d A' B C)].
  - intros j k acc A. destruct (L7 _ _ _ A) as (B & C). split; [exact B|].
    intros d D F. destruct (Up _ _ D) as [(-> & ->)|(N & D')]; [reflexivity | eauto].
Qed.

Lemma hinv_complete s i c o c' :
  cl s i = Some c -> sinv c -> hinv s ->
  (cst c = COMMITTING /\ o = OCommitted) \/ (cst c = ABORTING /\ o = OAborted) ->
  (* the obligation at this point *)
  (cst c = ABORTING -> csent c = false) ->
  (cst c = COMMITTING -> slot c = Some (KEnd, SApplied) \/ accepted c = []) ->
  kcur c' = kcur c -> csent c' = csent c -> accepted c' = accepted c -> cst c' = READY ->
  hinv (mkG (set_nth i c' (clients s)) (genv s) (ended s ++ [(tagof i c, o, accepted c)])).
Proof.
  intros Hc Si L Hst Hab Hsl Sk Ss Sacc R.
  pose proof L as [E3 L1 L5 L6 L8 L9 L7 L14].
  set (ed' := ended s ++ _). set (s' := mkG _ _ _).
  pose proof (cl_upd_inv s i c c' (genv s) ed' Hc) as Up.
  assert (EC : forall tg, ended_committed s tg -> ended_committed s' tg).
  { intros tg (acc & K). exists acc. apply in_or_app. auto. }
  assert (CK : forall j k, commit_known s j k -> commit_known s' j k).
  { apply (commit_known_upd s i c c' _ _ Hc); [apply incl_appl, incl_refl | intros K; left; split; congruence]. }
  assert (NotEnded : forall o1 acc, ~ In ((i, kcur c), o1, acc) (ended s)).
  { apply (hinv_not_ended s i c L Hc); destruct Hst as [(K & _)|(K & _)]; congruence. }
  constructor; simpl; [exact E3 | ..].
  - intros j d A B x p C. destruct (Up _ _ A) as [(-> & ->)|(N & A')]; [|exact (L1 j d A' B x p C)].
    rewrite Sk. apply (L1 i c Hc); congruence.
  - intros j k A B. apply CK. eauto.
  - intros j k A. apply CK. eauto.
  - intros j k o1 acc A. apply in_app_or in A. destruct A as [A|[A|[]]].
    + apply (cl_upd_some s i c c' _ _ Hc (past k)); [|eauto].
      unfold past. rewrite Sk. intros -> [C|(-> & _)]; [auto | destruct (NotEnded _ _ A)].
    + injection A as <- <- <- <-. exists c'. split; [exact (cl_upd_eq s i c c' _ _ Hc)|]. right. auto.
  - intros j d A B C. destruct (Up _ _ A) as [(-> & ->)|(N & A')]; [|apply EC; eauto].
    rewrite Sk. rewrite Ss in B. destruct Hst as [(K1 & ->)|(K1 & _)]; [|rewrite (Hab K1) in B; discriminate].
    exists (accepted c). apply in_or_app. right. left. reflexivity.
  - intros j k acc A. apply in_app_or in A. destruct A as [A|[A|[]]].
    + destruct (L7 _ _ _ A) as (B & C). split.
      * intros (acc' & K). apply in_app_or in K. destruct K as [K|[K|[]]]; [apply B; exists acc'; exact K|].
        injection K as <- <- _ _. destruct (NotEnded _ _ A).
      * intros d D F. destruct (Up _ _ D) as [(-> & ->)|(N & D')]; [|eauto]. rewrite Ss. apply (C c Hc). congruence.
    + injection A as <- <- Ko <-. destruct Hst as [(_ & K2)|(K1 & _)]; [congruence|]. split.
      * intros (acc' & K). apply in_app_or in K. destruct K as [K|[K|[]]]; [destruct (NotEnded _ _ K) | congruence].
      * intros d D F. destruct (Up _ _ D) as [(_ & ->)|(N & _)]; [|destruct (N eq_refl)]. rewrite Ss. auto.
  - intros j k acc A x p B. apply in_app_or in A. destruct A as [A|[A|[]]]; [exact (L14 _ _ _ A x p B)|].
    injection A as <- <- Ko <-. destruct Hst as [(K1 & _)|(_ & K2)]; [|congruence].
    destruct (Hsl K1) as [Sl|Em]; [|rewrite Em in B; destruct B].
    apply (L1 i c Hc); [apply (s_13 _ Si); auto | exact B].
Qed.

Lemma owner_is_true e t : owner_is e t = true -> eowner e = Some t.
Proof.
  unfold owner_is. destruct (eowner e) as [[a b]|]; [|discriminate]. destruct t as [a' b'].
  unfold tag_eqb. simpl. intros H. apply andb_prop in H. destruct H as [H1 H2].
  apply Nat.eqb_eq in H1. apply Nat.eqb_eq in H2. subst. reflexivity.
Qed.
Lemma owner_is_refl e t : eowner e = Some t -> owner_is e t = true.
Proof.
  unfold owner_is. intros ->. destruct t as [a b]. unfold tag_eqb. simpl. rewrite !Nat.eqb_refl. reflexivity.
Qed.

Lemma option_tag_dec (a b : option tag) : {a = b} + {a <> b}.
Proof. repeat decide equality. Qed.

Lemma no_open_spec en p : no_open en = true -> In p (eparts en) -> rc_open_t (log_of p (glog en)) = [].
Proof.
  unfold no_open. intros H I. rewrite forallb_forall in H. specialize (H p I).
  destruct (rc_open_t (log_of p (glog en))); [reflexivity | discriminate].
Qed.

Lemma oinv_add s i c ps c' ed' :
  get s i = Some c -> oinv s -> not_prep (genv s) = true ->
  (* the obligations of a registration; [ob] has one branch for RAddParts i _ VApplied and RAddOffs i VApplied,
     so this is, up to conversion, also the hypothesis for AddPartitionsToTxn *)
  ob s (RAddOffs i VApplied) = None ->
  kcur c' = kcur c -> capp c' = capp c -> cowned c' = (cowned c || negb (owner_is (genv s) (tagof i c))) ->
  oinv (mkG (set_nth i c' (clients s)) (env_add (genv s) ps (tagof i c)) ed').
Proof.
  intros Hg [E1 E2 E5 L12 L11 L10 L2] NP Ob3 Sk Sa So.
  destruct (get_some _ _ _ Hg) as (Hc & _).
  (* obligation 3: the open coordinator transaction is this application transaction's, or it holds no data
     and this application transaction has not had one of its own; with none open, it has not had one *)
  assert (Ob : if is_ongoing (genv s)
               then eowner (genv s) = Some (i, kcur c) \/ (no_open (genv s) = true /\ cowned c = false)
               else cowned c = false).
  { unfold ob in Ob3. rewrite Hg in Ob3. destruct (is_ongoing (genv s)).
    - destruct (owner_is (genv s) (tagof i c)) eqn:Ow; [left; apply owner_is_true; exact Ow|].
      simpl in Ob3. destruct (no_open (genv s)); [|discriminate]. destruct (cowned c); [discriminate | auto].
    - destruct (cowned c); [discriminate | reflexivity]. }
  set (en' := env_add _ _ _).
  pose proof (cl_upd_inv s i c c' en' ed' Hc) as Up.
  (* the owner afterwards is this application transaction *)
  assert (NO : eowner en' = Some (i, kcur c)).
  { unfold en'. simpl. unfold tagof. destruct (is_ongoing (genv s)); [|reflexivity].
    destruct (no_open (genv s)) eqn:N; [reflexivity|]. destruct Ob as [Ob|(Ob & _)]; congruence. }
  (* if it was not the owner before, nothing is open and it has not had a transaction of its own *)
  assert (Fresh : eowner (genv s) <> Some (i, kcur c) ->
                  (forall p tg x, ~ In (tg, x) (rc_open_t (log_of p (glog (genv s))))) /\ cowned c = false).
  { intros Ne. destruct (is_ongoing (genv s)) eqn:Og.
    - destruct Ob as [Ob|(Ob1 & Ob2)]; [congruence|]. split; [|exact Ob2].
      intros p tg x K. destruct (E2 _ _ _ K) as (_ & _ & C). rewrite (no_open_spec _ _ Ob1 C) in K. destruct K.
    - split; [|exact Ob]. intros p tg x K. destruct (E2 _ _ _ K) as (A & _).
      unfold is_ongoing, not_prep in *. destruct A as [A|(b & A)]; rewrite A in *; discriminate. }
  constructor; cbn [genv]; rewrite ?NO.
  - intros [K|(b & K)]; discriminate.
  - intros p tg x K. destruct (E2 _ _ _ K) as (A & B & C).
    split; [left; reflexivity|]. split; [|apply unionn_In; auto].
    destruct (option_tag_dec (eowner (genv s)) (Some (i, kcur c))) as [Q|Q]; [congruence|].
    destruct (proj1 (Fresh Q) _ _ _ K).
  - intros c0 K. discriminate.
  - intros j k [= <- <-]. exists c'. split; [exact (cl_upd_eq s i c c' _ _ Hc) | lia].
  - intros j d A B. destruct (Up _ _ A) as [(-> & ->)|(N & A')]; [|congruence].
    rewrite So. destruct (option_tag_dec (eowner (genv s)) (Some (i, kcur c))) as [Q|Q].
    + rewrite (L11 i c Hc Q). reflexivity.
    + destruct (owner_is (genv s) (tagof i c)) eqn:Ow; [|apply orb_true_r].
      apply owner_is_true in Ow. contradiction.
  - intros j d A B. destruct (Up _ _ A) as [(-> & ->)|(N & A')]; [|eauto].
    rewrite Sa. rewrite So in B. apply orb_false_iff in B. destruct B as [B _]. eauto.
  - intros j d A B _ x p C. destruct (Up _ _ A) as [(-> & ->)|(N & A')]; [|congruence].
    rewrite Sa in C. rewrite Sk.
    destruct (option_tag_dec (eowner (genv s)) (Some (i, kcur c))) as [Q|Q].
    + destruct (is_ongoing (genv s)) eqn:Og.
      * assert (Es : est (genv s) = EOngoing) by (unfold is_ongoing in Og; destruct (est (genv s)); congruence).
        destruct (L2 i c Hc Q Es x p C) as (K1 & K2). split; [exact K1 | apply unionn_In; auto].
      * exfalso. assert (Z : est (genv s) = EEmpty \/ (exists c0, est (genv s) = EDone c0)).
        { unfold is_ongoing, not_prep in *. destruct (est (genv s)) eqn:Z; try discriminate; eauto. }
        destruct (E1 Z) as (_ & Z2). congruence.
    + rewrite (L10 i c Hc (proj2 (Fresh Q))) in C. destruct C.
Qed.

Lemma oinv_append s i c p ep items c' ed' :
  cl s i = Some c -> oinv s ->
  (* obligations 1 and 3 *)
  est (genv s) = EOngoing -> In p (eparts (genv s)) -> eowner (genv s) = Some (i, kcur c) ->
  kcur c' = kcur c -> cowned c' = cowned c -> capp c' = capp c ++ pairs p items ->
  oinv (mkG (set_nth i c' (clients s)) (env_append (genv s) p (Data ep (i, kcur c) items)) ed').
Proof.
  intros Hc [E1 E2 E5 L12 L11 L10 L2] Es Ep Eo Sk So Sa.
  set (en' := env_append _ _ _).
  pose proof (cl_upd_inv s i c c' en' ed' Hc) as Up.
  constructor; unfold en'; simpl; rewrite ?Es.
  - intros [K|(b & K)]; discriminate.
  - intros q tg x K. rewrite open_append_data in K. apply in_app_or in K. destruct K as [K|K].
    + exact (E2 _ _ _ K).
    + destruct (Nat.eqb p q) eqn:Epq; [|destruct K]. apply Nat.eqb_eq in Epq. subst q.
      apply in_map_iff in K. destruct K as (y & [= <- <-] & K2).
      split; [left; exact Es|]. split; [exact Eo | exact Ep].
  - intros c0 K. discriminate.
  - intros j k K. apply (cl_upd_some s i c c' _ _ Hc (fun d => k <= kcur d)); [lia | auto].
  - intros j d A B. destruct (Up _ _ A) as [(-> & ->)|(N & A')]; [|eauto].
    rewrite So. apply (L11 i c Hc). congruence.
  - intros j d A B. destruct (Up _ _ A) as [(-> & ->)|(N & A')]; [|eauto].
    rewrite So, (L11 i c Hc Eo) in B. discriminate.
  - intros j d A B _ x q C. rewrite open_append_data. destruct (Up _ _ A) as [(-> & ->)|(N & A')]; [|congruence].
    rewrite Sk. rewrite Sa in C. apply in_app_or in C. destruct C as [C|C].
    + destruct (L2 i c Hc Eo Es _ _ C) as (K1 & K2). split; [apply in_or_app; left; exact K1 | exact K2].
    + unfold pairs in C. apply in_map_iff in C. destruct C as (y & [= <- <-] & C2).
      split; [|exact Ep]. apply in_or_app. right. rewrite Nat.eqb_refl. apply in_map_iff. eauto.
Qed.

Lemma hinv_applied s i c c' en' :
  cl s i = Some c -> sinv c -> hinv s ->
  est (genv s) <> EPrep true -> est en' <> EPrep true -> edone en' = edone (genv s) ->
  (forall p, rc_view_t (log_of p (glog en')) = rc_view_t (log_of p (glog (genv s)))) ->
  kcur c' = kcur c -> csent c' = csent c -> accepted c' = accepted c -> cst c' = cst c ->
  hinv (mkG (set_nth i c' (clients s)) en' (ended s)).
Proof.
  intros Hc Si H N N' Ed Vw Sk Ss Sacc Sst.
  apply (hinv_upd_client (put_env s en') i c); auto using hinv_env; rewrite Sst; auto.
Qed.

Lemma hinv_endtxn s i c commit c' :
  cl s i = Some c -> linv s -> cinv c ->
  cst c = COMMITTING /\ commit = true \/ cst c = ABORTING /\ commit = false ->
  queue c = [] -> inflight c = [] -> pend_offs c = [] ->
  kcur c' = kcur c -> accepted c' = accepted c -> cst c' = cst c -> csent c' = (csent c || commit) ->
  (* obligations 2/3, coordinator Ongoing *)
  (est (genv s) = EOngoing -> eowner (genv s) = Some (i, kcur c) /\ (commit = true -> lostb c = false)) ->
  (* obligation 4, coordinator already Complete *)
  (forall c0, est (genv s) = EDone c0 -> exists b, last_done (edone (genv s)) = Some (Some (i, kcur c), b)) ->
  forall en', est (genv s) = EOngoing /\ en' = env_st (genv s) (EPrep commit) (eep (genv s)) \/
              est (genv s) = EDone commit /\ en' = genv s ->
  hinv (mkG (set_nth i c' (clients s)) en' (ended s)).
Proof.
  intros Hc [[E1 E2 E5 L12 L11 L10 L2] L] Ci Hst Q I Po Sk Sacc Sst Ss ObO ObD en' Henv.
  pose proof L as [E3 L1 L5 L6 L8 L9 L7 L14].
  set (s' := mkG _ _ _).
  pose proof (cl_upd_inv s i c c' en' (ended s) Hc) as Up.
  assert (NPt : est (genv s) <> EPrep true) by (destruct Henv as [(K & _)|(K & _)]; congruence).
  assert (Gl : glog en' = glog (genv s) /\ eowner en' = eowner (genv s) /\ edone en' = edone (genv s)).
  { destruct Henv as [(_ & ->)|(_ & ->)]; repeat split. }
  destruct Gl as (Gl & Go & Gd).
  assert (V : forall tg x p, vop s tg x p -> vop s' tg x p).
  { intros tg x p. apply vop_view_only; [|exact NPt]. intros q y K. simpl. rewrite Gl. exact K. }
  assert (CK : forall j k, commit_known s j k -> commit_known s' j k).
  { apply (commit_known_upd s i c c' _ _ Hc); [apply incl_refl|]. intros K. left. rewrite Ss, K. auto. }
  assert (NotEnded : forall o1 acc, ~ In ((i, kcur c), o1, acc) (ended s)).
  { apply (hinv_not_ended s i c L Hc); destruct Hst as [(K & _)|(K & _)]; congruence. }
  constructor; unfold s'; cbn [genv ended]; rewrite ?Gl, ?Go, ?Gd.
  - exact E3.
  - intros j d A B x p C. destruct (Up _ _ A) as [(-> & ->)|(N & A')]; [|apply V; eauto].
    rewrite Sk. rewrite Sacc in C. rewrite Ss in B.
    destruct (csent c) eqn:Cs; [apply V; apply (L1 i c Hc); auto|]. simpl in B. subst commit.
    destruct Hst as [(St & _)|(_ & K)]; [|discriminate].
    destruct Henv as [(Es & ->)|(Es & ->)].
    + (* first EndTxn(commit) of this transaction: everything accepted is in the open part of
         registered partitions, the coordinator is now PrepareCommit *)
      destruct (ObO Es) as (Ow & Lb). specialize (Lb eq_refl).
      destruct (ci_acc _ Ci Lb _ _ C) as [K|[(b & K1 & _)|(_ & l & K1 & _)]].
      * destruct (L2 i c Hc Ow Es _ _ K) as (K1 & K2). right. simpl. rewrite Ow. auto.
      * rewrite Q, I in K1. destruct K1.
      * rewrite Po in K1. destruct K1.
    + (* answered "already complete" without our EndTxn having been applied before: impossible *)
      exfalso. destruct (ObD _ Es) as (b & Ld). destruct (E5 _ Es) as (o & Ld2).
      rewrite Ld in Ld2. injection Ld2 as <- ->.
      assert (H : In (Some (i, kcur c), true) (edone (genv s))).
      { unfold last_done in Ld. destruct (rev (edone (genv s))) eqn:R; [discriminate|].
        injection Ld as ->. rewrite (in_rev (edone (genv s))). rewrite R. left. reflexivity. }
      destruct (L6 _ _ H) as [(c0 & A1 & A2 & A3)|(acc & A1)].
      * rewrite Hc in A1. injection A1 as <-. congruence.
      * destruct (NotEnded _ _ A1).
  - intros j k A B. destruct Henv as [(Es & ->)|(Es & ->)]; simpl in B; [|congruence].
    injection B as ->. destruct (ObO Es) as (Ow & _). rewrite Ow in A. injection A as <- <-.
    left. exists c'. split; [exact (cl_upd_eq s i c c' _ _ Hc)|]. rewrite Sk, Ss. split; [reflexivity | apply orb_true_r].
  - intros j k A. apply CK. eauto.
  - intros j k o acc A.
    apply (cl_upd_some s i c c' _ _ Hc (past k)); [|eauto].
    unfold past. rewrite Sk, Sst. auto.
  - intros j d A B C. destruct (Up _ _ A) as [(-> & ->)|(N & A')]; [|exact (L9 j d A' B C)].
    rewrite Sst in C. destruct Hst as [(K & _)|(K & _)]; congruence.
  - intros j k acc A. destruct (L7 _ _ _ A) as (B & C). split; [exact B|].
    intros d D F. destruct (Up _ _ D) as [(-> & ->)|(N & D')]; [|eauto].
    rewrite Sk in F. subst k. destruct (NotEnded _ _ A).
  - intros j k acc A x p B. apply V. eauto.
Qed.

Lemma is_ongoing_true e : is_ongoing e = true -> est e = EOngoing.
Proof. unfold is_ongoing. destruct (est e); congruence. Qed.
Lemma not_prep_true e : not_prep e = true -> est e <> EPrep true.
Proof. unfold not_prep. destruct (est e); congruence. Qed.

Lemma step_linv s e s' : step_ob s e = Some s' -> gcinv s -> gsinv s -> linv s -> linv s'.
Proof.
  unfold step_ob. intros H GC GS L. destruct (ob s e) eqn:Ob; [discriminate|].
  destruct (step_inv _ _ _ H) as [en' ES | i c c' en' o Hc Al CS].
  - destruct ES; [apply linv_fence | apply linv_markers | apply linv_initok]; assumption.
  - pose proof (Forall_nth_error _ _ _ _ GC Hc) as Ci. pose proof (Forall_nth_error _ _ _ _ GS Hc) as Si.
    pose proof L as [O Hi].
    assert (Ns : cst c = IN_TXN -> csent c = false).
    { intros K. apply not_true_is_false. intros Cs. destruct (s_16 _ Si Cs). contradiction. }
    (* what [linv] reads of the instance is unchanged, or accepted grows (only in IN_TXN, where [Ns] gives
       csent = false), or the instance becomes FATAL *)
    destruct CS; try solve [apply (linv_upd_client s i c); auto; try discriminate].
    + (* cs_start: the environment loses an issued epoch, which no clause reads *)
      apply (linv_upd_client (put_env s _) i c); auto; try discriminate.
      destruct L as [[E1 E2 E5 L12 L11 L10 L2] [E3 L1 L5 L6 L8 L9 L7 L14]]. split; constructor; assumption.
    + (* cs_begin *) apply linv_begin; assumption.
    + (* cs_committing *) apply (linv_upd_client s i c); auto; [|discriminate]. intros [K|K]; congruence.
    + (* cs_aborting *) apply (linv_upd_client s i c); auto; [|discriminate]. intros [K|K]; destruct St; congruence.
    + (* cs_complete *) destruct Al as [Al|[]]. unfold ob in Ob. rewrite (get_alive _ _ _ Hc Al) in Ob.
      split; [apply (oinv_upd_client s i c); auto | apply hinv_complete; auto].
      * intros K. rewrite K in Ob. destruct (csent c); [discriminate | reflexivity].
      * intros K. rewrite K in Ob. destruct (slot_is c KEnd SApplied) eqn:Sa; [left; apply slot_is_true; exact Sa|].
        right. destruct (accepted c); [reflexivity | discriminate].
    + (* cs_error *) apply (linv_upd_client s i c); auto; [|discriminate].
      intros [K|K]; destruct St as [K1|[K1|K1]]; congruence.
    + (* cs_add_parts *) destruct Al as [Al|[]].
      split; [apply oinv_add; auto using get_alive | apply (hinv_applied s i c); auto using not_prep_true; discriminate].
    + (* cs_add_offs *) destruct Al as [Al|[]].
      split; [apply oinv_add; auto using get_alive | apply (hinv_applied s i c); auto using not_prep_true; discriminate].
    + (* cs_toc *) destruct Al as [Al|[]]. unfold ob in Ob. rewrite (get_alive _ _ _ Hc Al) in Ob.
      destruct (is_ongoing (genv s) && memn GROUPP (eparts (genv s))) eqn:O1; [|discriminate]. simpl in Ob.
      destruct (owner_is (genv s) (tagof i c)) eqn:O3; [|discriminate]. apply andb_prop in O1. destruct O1 as [O1 O1'].
      apply is_ongoing_true in O1.
      split; [apply (oinv_append s i c GROUPP (cep c) items); auto | apply (hinv_applied s i c); auto].
      * apply memn_In; auto.
      * apply owner_is_true, O3.
      * congruence.
      * simpl. congruence.
      * intros p. apply view_append_data.
    + (* cs_end *) destruct Al as [Al|[]]. unfold ob in Ob. rewrite (get_alive _ _ _ Hc Al) in Ob. split.
      * destruct Es as [(Es & ->)|(Es & ->)]; [apply (oinv_upd_client (put_env s _) i c); auto; apply oinv_prep |
                                              apply (oinv_upd_client s i c)]; auto.
      * destruct Er as (_ & Qe & Ie & _ & Po & St).
        apply (hinv_endtxn s i c cm _ Hc L Ci St Qe Ie Po); auto.
        -- intros K. rewrite K in Ob. destruct (owner_is (genv s) (tagof i c)) eqn:O3; [|discriminate]. simpl in Ob.
           split; [apply owner_is_true, O3|]. intros ->. destruct (lostb c); [discriminate | reflexivity].
        -- intros c0 K. rewrite K in Ob. unfold last_done_owner in Ob. unfold last_done.
           destruct (rev (edone (genv s))) as [|[[t|] b] l]; try discriminate.
           destruct (tag_eqb t (tagof i c)) eqn:Te; [|discriminate]. exists b. destruct t as [a k].
           apply andb_prop in Te. destruct Te as [T1 T2]. apply Nat.eqb_eq in T1, T2. simpl in T1, T2. subst. reflexivity.
    + (* cs_produce *) unfold ob in Ob. unfold cl in Hc. rewrite Hc, Tk in Ob.
      destruct (is_ongoing (genv s) && memn (bpart x) (eparts (genv s))) eqn:O1; [|discriminate]. simpl in Ob.
      destruct (Nat.eqb (btag x) (kcur c) && owner_is (genv s) (i, btag x)) eqn:O3; [|discriminate].
      apply andb_prop in O1. destruct O1 as [O1 O1']. apply andb_prop in O3. destruct O3 as [O3 O3'].
      apply Nat.eqb_eq in O3. rewrite O3 in *. apply is_ongoing_true in O1.
      split; [apply (oinv_append s i c (bpart x) (cep c) (bitems x)); auto | apply (hinv_applied s i c); auto].
      * apply memn_In; auto.
      * apply owner_is_true, O3'.
      * congruence.
      * simpl. congruence.
      * intros p. apply view_append_data.
Qed.

Lemma cl_g0 n i c : cl (g0 n) i = Some c -> c = client0.
Proof. unfold cl, g0. simpl. intros H. apply nth_error_In in H. apply repeat_spec in H. exact H. Qed.

Lemma linv_g0 n : linv (g0 n).
Proof.
  split; constructor; simpl; intros; try contradiction; try discriminate; auto;
    try (apply cl_g0 in H; subst; try reflexivity; discriminate).
Qed.

Lemma step_ob_step s e s' : step_ob s e = Some s' -> step s e = Some s'.
Proof. unfold step_ob. destruct (ob s e); [discriminate | auto]. Qed.

Lemma run_ob_run : forall tr s s', run_ob s tr = Some s' -> run s tr = Some s'.
Proof.
  induction tr as [|e tr IH]; intros s s' H; [exact H|].
  rewrite run_ob_cons in H. destruct (step_ob s e) as [s1|] eqn:S; [|discriminate].
  simpl. rewrite (step_ob_step _ _ _ S). eauto.
Qed.

Lemma run_ob_inv : forall tr s s', run_ob s tr = Some s' -> gcinv s -> gsinv s -> linv s -> linv s'.
Proof.
  induction tr as [|e tr IH]; intros s s' H GC GS L.
  - injection H as <-. exact L.
  - rewrite run_ob_cons in H. destruct (step_ob s e) as [s1|] eqn:S; [|discriminate].
    pose proof (step_ob_step _ _ _ S) as S'. apply (IH s1 s' H).
    + exact (step_clients cinv cstep_cinv _ _ _ S' GC).
    + exact (step_clients sinv cstep_sinv _ _ _ S' GS).
    + exact (step_linv _ _ _ S GC GS L).
Qed.

Lemma run_ob_hinv n tr s : run_ob (g0 n) tr = Some s -> hinv s.
Proof.
  intros H. eapply proj2, (run_ob_inv _ _ _ H); [apply clients_g0, cinv_client0 | apply clients_g0, sinv_client0 |].
  apply linv_g0.
Qed.

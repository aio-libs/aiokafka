(* C16_agree.v — the hand-written error classification of model/C16_TxnApi.v for the AddPartitionsToTxn,
   AddOffsetsToTxn, TxnOffsetCommit and EndTxn handlers agrees with the dispatch chains translated from sender.py
   (gen/Txn*Dispatch.v), for every error code of the model: same class and same coordinator rediscovery (the
   exception an AFatal / AAbortable carries is not compared).  [cl_produce] is not compared, and the model has no
   InitProducerId handler. *)
From Coq Require Import ZArith List Bool.
From Verif Require Import DispatchActs TxnAddPartitionsDispatch TxnAddOffsetsDispatch
  TxnOffsetCommitDispatch TxnEndDispatch C16_dispatch.
From Verif Require C16_TxnApi.
Import ListNotations.
Open Scope Z_scope.

(* the AFailBatch line is never met: only [cl_produce] answers AFailBatch *)
Definition class_of_action (a : C16_TxnApi.action) : tclass * bool :=
  match a with
  | C16_TxnApi.ASuccess => (TSuccess, false)
  | C16_TxnApi.ARetry d => (TRetry, d)
  | C16_TxnApi.AAbortable _ => (TAbortable, false)
  | C16_TxnApi.AFatal _ => (TFatal, false)
  | C16_TxnApi.AFailBatch _ => (TFatal, false)
  end.

Definition of_chain (l : list act) : tclass * bool := (classify l, has ACoordinatorDead l).

(* The per-member facts behind the invariant and the variant of model/C06_Converge.v: what each step of a member and
   each change of the coordinator does to its finite view [av], what it can do next, what "settled" means for the
   variant; checked for every value of the view by one evaluation ([ok_member]). *)
From Coq Require Import ZArith List Bool Arith Lia.
From Verif Require Import DispatchActs HeartbeatDispatch JoinRetryDispatch JoinDispatch SyncDispatch CommitDispatch
  C06_Converge C06_conv_lib C06_conv_refl C06_conv_abs.
Import ListNotations.
Local Open Scope nat_scope.

Definition nib (i : ibk) : bool := match i with INone => true | _ => false end.
Definition inv_a (a : av) : bool := wf_a a && coh_a a.
(* the member's potential [mp_a] is 64 * (knowledge of the coordinator) + the rest, and the rest stays below 64: it is
   compared by components, which keeps the evaluated numbers small *)
Definition rest_a (a : av) : nat := main_rank_a a + hbp_a a + cmp_a a.
Definition pot_le (strict : bool) (k' q' k q : nat) : bool :=
  (k' <? k) || ((k' =? k) && (if strict then q' <? q else q' <=? q)).
(* [a'] is fine and the member's part of the variant behaves against the trigger weight [t] and the potential [k], [q]
   it had before: [dk] = entries it stops being bound to; [r = Some real]: the potential does not go up, and goes
   down if [real] (not a no-op); [r = None]: the step lowers the coordinator's rank, the potential is free *)
Definition good_at (t k q : nat) (a' : av) (dk : nat) (r : option bool) : bool :=
  a_live a' && inv_a a' && (tw_a a' + dk <=? t)
  && match r with Some real => pot_le real (ckp_a a') (rest_a a') k q | None => true end.
Definition good (a : av) : av -> nat -> option bool -> bool := good_at (tw_a a) (ckp_a a) (rest_a a).
Definition keeps (a a' : av) : bool := good a a' 0 None.

(* the part of [wf_a] that reads no atom: prunes the enumeration *)
Definition pre_wf : fin_t := fun live ph ib rejoin ck hb hbin cmin st =>
  live
  && (match ph, ib with
      | PIdle, INone | PJoined, INone | PSyncSent, INone | PSyncSent, IS _ | PJoinSent, IJ _ => true
      | PJoinSent, INone => ck_ok ck
      | _, _ => false end)
  && (ph_eqb ph PIdle || (is_none cmin && negb hb && is_none hbin))
  && (hb || is_none hbin)
  && (negb (ck_stale ck) || (opt_in hbin [16%Z] && opt_in cmin [16%Z])).
Definition chk_pre_wf (a : av) : bool := negb (wf_a a) || fin_of pre_wf a.

Definition is_zero (s : idsrc) : bool := match s with SZero => true | _ => false end.
(* entries the member stops being bound to: its id (if in the table) and the id of its JoinGroup exchange *)
Definition dk_of (a : av) (lost_id lost_focus : bool) : nat :=
  (if lost_id && negb (a_idz a) && a_id_e a then 1 else 0)
  + (if lost_focus && ph_eqb (a_ph a) PJoinSent && a_f_e a && negb (a_f_id a) then 1 else 0).

Definition join_src (code : Z) : idsrc :=
  if has ARetryJoin (joinRetryDispatch code) then src_of true (joinRetryDispatch code)
  else if has ASuccess (joinDispatch code) then SFocus else src_of true (joinDispatch code).

(* JoinGroup sent: heartbeat task stopped; the exchange is about the id with view [f*]; reply / parked *)
Definition a_enter_join (ib : ibk) (fz f_e f_p f_jp f_sp f_id gz g_eq g_le : bool) (a : av) : av :=
  mkA (a_live a) PJoinSent (a_rejoin a) (a_ck a) false ib None (a_cmin a) (a_st a) (a_G0 a)
      (a_idz a) (a_id_e a) (a_id_p a) (a_id_jp a) (a_id_sp a) (a_genz a) (a_gen_eq a) (a_gen_le a)
      fz f_e f_p f_jp f_sp f_id gz g_eq g_le.
Definition join_ready_a (a : av) : bool :=
  ph_eqb (a_ph a) PIdle && nib (a_ib a) && is_none (a_cmin a) && ck_known (a_ck a) && a_rejoin a.
(* refused for the member's own id: to the wrong node (16), unknown member id (25) *)
Definition a_join_refused (code : Z) (a : av) : av :=
  a_enter_join (IJ code) (a_idz a) (a_id_e a) (a_id_p a) (a_id_jp a) (a_id_sp a) true true (a_G0 a) true a.
(* empty member id, v4+: MEMBER_ID_REQUIRED with a fresh pending id *)
Definition a_join_79 (a : av) : av := a_enter_join (IJ 79) false false true false false false true (a_G0 a) true a.
(* accepted for the id x (= m_id, or fresh with m_id = 0): its entry now exists with the join flag set *)
Definition a_join_parked (a : av) : av :=
  let own := negb (a_idz a) in
  mkA (a_live a) PJoinSent (a_rejoin a) (a_ck a) false INone None (a_cmin a) (a_st a) (a_G0 a)
      (a_idz a) own false own (a_id_sp a) (a_genz a) (a_gen_eq a) (a_gen_le a)
      false true false true (a_id_sp a) own true (a_G0 a) true.
Definition join_ok_a (a : av) : bool :=
  join_ready_a a && negb (ck_stale (a_ck a)) && (a_idz a || a_id_e a || a_id_p a).
(* known non-leader in Stable / known in CompletingRebalance: answered at once with the current generation *)
Definition a_join_immediate (a : av) : av :=
  a_enter_join (IJ 0) false true false false (a_id_sp a) true false true true a.

Definition a_send_sync (ib : ibk) (sp : bool) (a : av) : av :=
  mkA (a_live a) PSyncSent false (a_ck a) (a_hb a) ib (a_hbin a) (a_cmin a) (a_st a) (a_G0 a)
      (a_idz a) (a_id_e a) (a_id_p a) (a_id_jp a) sp (a_genz a) (a_gen_eq a) (a_gen_le a)
      (a_fz a) (a_f_e a) (a_f_p a) (a_f_jp a) (a_f_sp a) (a_f_id a) (a_gz a) (a_g_eq a) (a_g_le a).
Definition sync_ready_a (a : av) : bool := ph_eqb (a_ph a) PJoined && nib (a_ib a) && ck_known (a_ck a).
Definition sync_reply (a : av) : option Z :=      (* None: parked *)
  if ck_stale (a_ck a) then Some 16%Z
  else let v := validate_a (a_idz a) (a_id_e a) (a_gen_eq a) in
       if negb (v =? 0)%Z then Some v
       else match a_st a with CPreparing => Some 27%Z | CStable => Some 0%Z | CEmpty => Some 25%Z | CCompleting => None end.

(* _prepare_rebalance ([st] = PreparingRebalance, [code] = REBALANCE_IN_PROGRESS) and the leader's SyncGroup
   ([st] = Stable, [code] = 0): parked SyncGroups answered with [code], sync flags cleared *)
Definition T_sync (st : cstate) (code : Z) (a : av) : av :=
  mkA (a_live a) (a_ph a) (a_rejoin a) (a_ck a) (a_hb a) (if a_waiting_sync a then IS code else a_ib a) (a_hbin a) (a_cmin a)
      st (a_G0 a) (a_idz a) (a_id_e a) (a_id_p a) (a_id_jp a) false (a_genz a) (a_gen_eq a) (a_gen_le a)
      (a_fz a) (a_f_e a) (a_f_p a) (a_f_jp a) false (a_f_id a) (a_gz a) (a_g_eq a) (a_g_le a).
(* _complete_join: generation + 1, join flags cleared, parked JoinGroups answered *)
Definition T_barrier (a : av) : av :=
  let w := a_waiting_join a in
  mkA (a_live a) (a_ph a) (a_rejoin a) (a_ck a) (a_hb a) (if w then IJ 0 else a_ib a) (a_hbin a) (a_cmin a)
      CCompleting false (a_idz a) (a_id_e a) (a_id_p a) false (a_id_sp a) (a_genz a) false true
      (a_fz a) (a_f_e a) (a_f_p a) false (a_f_sp a) (a_f_id a)
      (if w then false else a_gz a) w true.
(* the table became empty ([bump]: the generation was incremented) *)
Definition T_empty (bump : bool) (a : av) : av :=
  mkA (a_live a) (a_ph a) (a_rejoin a) (a_ck a) (a_hb a) (a_ib a) (a_hbin a) (a_cmin a)
      CEmpty (if bump then false else a_G0 a) (a_idz a) (a_id_e a) (a_id_p a) (a_id_jp a) (a_id_sp a)
      (a_genz a) (if bump then false else a_gen_eq a) (if bump then true else a_gen_le a)
      (a_fz a) (a_f_e a) (a_f_p a) (a_f_jp a) (a_f_sp a) (a_f_id a)
      (a_gz a) (if bump then false else a_g_eq a) (if bump then true else a_g_le a).

(* the table of transitions of a view: when a row applies, the view after it, the entries the member stops being
   bound to, what is asked of the potential.  Rows A*: the member's own steps, one per way a step of the model can end
   (a JoinGroup has five); rows V*: a change of the coordinator as seen by any member.  (Unrelated to [DispatchActs.act].) *)
Inductive amove :=
| AFind | AHbSend | AHbRecv | ACmSend | ACmRecv | ARecv
| AJoinRefused (stale : bool) | AJoin79 | AJoinParked | AJoinImmediate
| AJoinTrigger      (* a JoinGroup that starts a rebalance (new id; known id in Stable - the model does this for the
                       leader only; first member): the coordinator is in PreparingRebalance afterwards with this
                       member parked, one trigger fewer *)
| ASendSync
| ASyncLeader       (* the leader's SyncGroup in CompletingRebalance *)
| VPrepare          (* any member, _prepare_rebalance from Stable / CompletingRebalance / Empty *)
| VBarrier          (* any member, _complete_join in PreparingRebalance: every entry has its join flag set, so a
                       member whose id is in the table without waiting on it sees the flag set *)
| VSyncDone
| VEmpty (bump : bool).   (* any member once the table is empty: its ids are not in it *)
Definition amoves : list amove :=
  [AFind; AHbSend; AHbRecv; ACmSend; ACmRecv; ARecv; AJoinRefused true; AJoinRefused false; AJoin79; AJoinParked;
   AJoinImmediate; AJoinTrigger; ASendSync; ASyncLeader; VPrepare; VBarrier; VSyncDone; VEmpty true; VEmpty false].

Definition apost (a : av) (mv : amove) : option (av * nat * option bool) :=
  match mv with
  | AFind => if ck_known (a_ck a) then None else Some (a_set_ck CkOk a, 0, Some true)
  | AHbSend =>
      if a_hb a && is_none (a_hbin a) && ck_known (a_ck a)
      then Some (a_set_hbin (Some (hb_code_a a)) a, 0, Some (negb (hb_silent_a a (hb_code_a a)))) else None
  | AHbRecv =>
      match a_hbin a with
      | Some code => Some (a_recv_hb code a, dk_of a (is_zero (src_of false (heartbeatDispatch code))) false,
                           Some (negb (hb_silent_a a code)))
      | None => None end
  | ACmSend =>
      if ph_eqb (a_ph a) PIdle && nib (a_ib a) && is_none (a_cmin a) && ck_known (a_ck a) && a_can_commit a
      then Some (a_set_cmin (Some (cm_code_a a)) a, 0, Some (negb (cm_silent_a a (cm_code_a a)))) else None
  | ACmRecv =>
      match a_cmin a with
      | Some code => Some (a_recv_cm code a, dk_of a (is_zero (src_of false (commitDispatch code))) false,
                           Some (negb (cm_silent_a a code)))
      | None => None end
  | ARecv =>
      match a_ph a, a_ib a with
      | PJoinSent, IJ code =>
          let id_kept := match join_src code with SSame => true | SFocus => a_f_id a | SZero => a_idz a end in
          let focus_kept := match join_src code with SSame => a_f_id a | SFocus => true | SZero => false end in
          Some (a_recv_join code a, dk_of a (negb id_kept) (negb focus_kept), Some true)
      | PSyncSent, IS code =>
          Some (a_recv_sync code a,
                dk_of a (negb (has ASuccess (syncDispatch code)) && is_zero (src_of false (syncDispatch code))) false,
                Some true)
      | _, _ => None end
  | AJoinRefused stale =>
      if join_ready_a a
         && (if stale then ck_stale (a_ck a)
             else negb (ck_stale (a_ck a)) && negb (a_idz a) && negb (a_id_e a) && negb (a_id_p a))
      then Some (a_join_refused (if stale then 16 else 25) a, 0, Some true) else None
  | AJoin79 => if join_ready_a a && negb (ck_stale (a_ck a)) && a_idz a then Some (a_join_79 a, 0, Some true) else None
  | AJoinParked => if join_ok_a a && cstate_eqb (a_st a) CPreparing then Some (a_join_parked a, 0, Some true) else None
  | AJoinImmediate =>
      if join_ok_a a && a_id_e a && negb (a_idz a) && negb (a_G0 a) && negb (a_id_jp a)
         && (cstate_eqb (a_st a) CStable || cstate_eqb (a_st a) CCompleting)
      then Some (a_join_immediate a, 0, Some true) else None
  | AJoinTrigger =>
      if join_ok_a a && negb (cstate_eqb (a_st a) CPreparing) && (negb (a_id_e a) || cstate_eqb (a_st a) CStable)
      then Some (T_sync CPreparing 27 (a_join_parked a), 1, None) else None
  | ASendSync =>
      if sync_ready_a a then
        match sync_reply a with
        | Some code => Some (a_send_sync (IS code) (a_id_sp a) a, 0, Some true)
        | None => Some (a_send_sync INone true a, 0, Some true)          (* follower: parked *)
        end
      else None
  | ASyncLeader =>
      if sync_ready_a a && cstate_eqb (a_st a) CCompleting && negb (ck_stale (a_ck a))
         && (validate_a (a_idz a) (a_id_e a) (a_gen_eq a) =? 0)%Z
      then Some (T_sync CStable 0 (a_send_sync INone (a_id_sp a) a), 0, None) else None
  | VPrepare => if cstate_eqb (a_st a) CPreparing then None else Some (T_sync CPreparing 27 a, 0, None)
  | VBarrier =>
      if cstate_eqb (a_st a) CPreparing && (negb (a_id_e a) || a_id_jp a) && (negb (a_f_e a) || a_f_jp a)
      then Some (T_barrier a, 0, None) else None
  | VSyncDone => if cstate_eqb (a_st a) CCompleting then Some (T_sync CStable 0 a, 0, None) else None
  | VEmpty bump => if negb (a_id_e a) && negb (a_f_e a) then Some (T_empty bump a, 0, None) else None
  end.

(* a member that cannot move by itself: parked at the coordinator, or settled while the coordinator is Stable *)
Definition blocked_a (a : av) : bool :=
  negb (a_live a) || a_waiting_join a || a_waiting_sync a
  || (settled_a a && (cstate_eqb (a_st a) CStable || cstate_eqb (a_st a) CEmpty)).

(* for progress: the member's steps by label of the model, with the guard of [step] read on the view ([guard_*],
   C06_conv_final.v); [amove] splits them by outcome, which a guard does not know *)
Inductive move := MFind | MSendJoin | MRecv | MSendSync | MHbSend | MHbRecv | MCmSend | MCmRecv.
Definition enabled_a (a : av) (mv : move) : bool :=
  a_live a &&
  match mv with
  | MFind => negb (ck_known (a_ck a))
  | MSendJoin => join_ready_a a
  | MRecv => match a_ph a, a_ib a with PJoinSent, IJ _ | PSyncSent, IS _ => true | _, _ => false end
  | MSendSync => sync_ready_a a
  | MHbSend => a_hb a && is_none (a_hbin a) && ck_known (a_ck a)
  | MHbRecv => negb (is_none (a_hbin a))
  | MCmSend => ph_eqb (a_ph a) PIdle && nib (a_ib a) && is_none (a_cmin a) && ck_known (a_ck a) && a_can_commit a
  | MCmRecv => negb (is_none (a_cmin a))
  end.
Definition real_a (a : av) (mv : move) : bool :=
  match mv with
  | MHbSend => negb (hb_silent_a a (hb_code_a a))
  | MHbRecv => match a_hbin a with Some c => negb (hb_silent_a a c) | None => false end
  | MCmSend => negb (cm_silent_a a (cm_code_a a))
  | MCmRecv => match a_cmin a with Some c => negb (cm_silent_a a c) | None => false end
  | _ => true
  end.
(* the view after a silent heartbeat / commit reply has been consumed *)
Definition after_noop (a : av) (mv : move) : av :=
  match mv with
  | MHbRecv => match a_hbin a with Some c => a_recv_hb c a | None => a end
  | MCmRecv => match a_cmin a with Some c => a_recv_cm c a | None => a end
  | _ => a end.
Definition moves : list move := [MFind; MSendJoin; MRecv; MSendSync; MHbSend; MHbRecv; MCmSend; MCmRecv].
Definition has_real (a : av) : bool := existsb (fun mv => enabled_a a mv && real_a a mv) moves.
(* a real move now, or after the silent reply on the wire has been consumed *)
Definition can_move (a : av) : bool :=
  has_real a || existsb (fun m0 => enabled_a a m0 && negb (real_a a m0) && has_real (after_noop a m0)) [MHbRecv; MCmRecv].

Definition chk_member (a : av) : bool :=
  let t := tw_a a in let k := ckp_a a in let q := rest_a a in
  forallb (fun mv => match apost a mv with Some (a', dk, r) => good_at t k q a' dk r | None => true end) amoves
  && (blocked_a a || can_move a)
  && (negb (settled_a a && (cstate_eqb (a_st a) CStable || cstate_eqb (a_st a) CEmpty)) || ((t =? 0) && (k =? 0) && (q =? 0))).

Lemma ok_member : forall_view pre_wf (fun a => negb (inv_a a) || chk_member a) = true.
Proof. vm_compute. reflexivity. Qed.

Time Lemma ok_pre_wf : forall_av pre_wf (fun a => true) = true.
Proof. apply forall_av_intro. reflexivity. Qed.

Lemma wf_pre : forall a, a_live a = true -> wf_a a = true -> fin_of pre_wf a = true.
Proof.
  intros a L W. destruct a as [live ph rejoin ck hb ib hbin cmin st G0 idz id_e id_p id_jp id_sp genz gen_eq gen_le
                                 fz f_e f_p f_jp f_sp f_id gz g_eq g_le].
  unfold wf_a, fin_of, pre_wf in *. cbn [a_live a_ph a_ib a_rejoin a_ck a_hb a_hbin a_cmin a_st a_idz a_genz a_fz a_f_id a_gz] in *.
  subst live. cbn [negb orb andb] in *.
  apply andb_true_iff in W; destruct W as [W W10]. apply andb_true_iff in W; destruct W as [W W9].
  apply andb_true_iff in W; destruct W as [W W8]. apply andb_true_iff in W; destruct W as [W W7].
  apply andb_true_iff in W; destruct W as [W W6]. apply andb_true_iff in W; destruct W as [W W5].
  apply andb_true_iff in W; destruct W as [W W4]. apply andb_true_iff in W; destruct W as [W W3].
  apply andb_true_iff in W; destruct W as [W1 W2].
  rewrite W2, W4. rewrite !andb_true_r.
  apply andb_true_iff. split.
  - destruct ph, ib; try discriminate; try reflexivity.
    apply andb_true_iff in W1. destruct W1 as [W1 _]. apply andb_true_iff in W1. destruct W1 as [W1 _]. exact W1.
  - destruct (ck_stale ck); [|reflexivity]. cbn [negb orb] in *. apply andb_true_iff in W8. destruct W8 as [W8 _]. exact W8.
Qed.

Lemma if_le : forall (b : bool) x y k, x <= k -> y <= k -> (if b then x else y) <= k.
Proof. intros [|] x y k Hx Hy; assumption. Qed.
Lemma idle_rank_le : forall a, idle_rank_a a <= 40.
Proof. intros a. unfold idle_rank_a. repeat apply if_le; try lia. destruct (cls_a a); lia. Qed.
Lemma joined_rank_le : forall st idz id_e gen_eq, joined_rank_a st idz id_e gen_eq <= 30.
Proof. intros. unfold joined_rank_a. apply if_le; lia. Qed.
Lemma main_rank_le : forall a, main_rank_a a <= 45.
Proof.
  intros a. pose proof (idle_rank_le a). pose proof (idle_rank_le (after_sync_ok a)).
  pose proof (joined_rank_le (a_st a) (a_fz a) (a_f_e a) (a_g_eq a)).
  pose proof (joined_rank_le (a_st a) (a_idz a) (a_id_e a) (a_gen_eq a)).
  unfold main_rank_a. destruct (a_ph a), (a_ib a); try lia; repeat apply if_le; lia.
Qed.
Lemma rest_lt_64 : forall a, rest_a a < 64.
Proof.
  intros a. assert (Hb : hbp_a a <= 2) by (unfold hbp_a; cbv zeta; destruct (a_hbin a); repeat apply if_le; lia).
  assert (Cb : cmp_a a <= 2) by (unfold cmp_a; cbv zeta; destruct (a_cmin a); repeat apply if_le; lia).
  pose proof (main_rank_le a). unfold rest_a. lia.
Qed.
Lemma mp_parts : forall a, a_live a = true -> mp_a a = ckp_a a * 64 + rest_a a.
Proof. intros a L. unfold mp_a, rest_a. rewrite L. lia. Qed.
Lemma pot_le_mp : forall strict a a', a_live a = true -> a_live a' = true ->
  pot_le strict (ckp_a a') (rest_a a') (ckp_a a) (rest_a a) = true ->
  if strict then mp_a a' < mp_a a else mp_a a' <= mp_a a.
Proof.
  intros strict a a' L L' H. rewrite (mp_parts a L), (mp_parts a' L'). pose proof (rest_lt_64 a'). unfold pot_le in H.
  apply orb_true_iff in H. destruct H as [H|H]; [apply Nat.ltb_lt in H; destruct strict; lia|].
  apply andb_true_iff in H. destruct H as [E H]. apply Nat.eqb_eq in E. rewrite E.
  destruct strict; [apply Nat.ltb_lt in H | apply Nat.leb_le in H]; lia.
Qed.

Lemma amoves_all : forall mv, In mv amoves.
Proof. intros [| | | | | |[|]| | | | | | | | | |[|]]; cbn; tauto. Qed.

Section Member.
  Variables (c : coord) (m : member).
  Hypotheses (Wc : wf_cw c) (L : m_live m = true) (Wm : wf_m c m = true) (Cm : coh c m = true).

  Lemma member_checked : chk_member (absm c m) = true.
  Proof.
    pose proof (forall_view_spec _ _ ok_member (absm c m) (cons_absm_w c m Wc L Wm) (wf_pre (absm c m) L Wm)) as H.
    unfold inv_a in H. fold (wf_m c m) (coh c m) in H. rewrite Wm, Cm in H. exact H.
  Qed.

  Lemma member_move : forall mv a' dk r, apost (absm c m) mv = Some (a', dk, r) -> good (absm c m) a' dk r = true.
  Proof.
    intros mv a' dk r E. pose proof member_checked as H. unfold chk_member in H. cbv zeta in H.
    apply andb_true_iff in H. destruct H as [H _]. apply andb_true_iff in H. destruct H as [H _].
    rewrite forallb_forall in H. specialize (H mv (amoves_all mv)). rewrite E in H. exact H.
  Qed.

  Lemma member_can_move : blocked_a (absm c m) = false -> can_move (absm c m) = true.
  Proof.
    intros B. pose proof member_checked as H. unfold chk_member in H. cbv zeta in H.
    apply andb_true_iff in H. destruct H as [H _]. apply andb_true_iff in H. destruct H as [_ H]. rewrite B in H. exact H.
  Qed.

  Lemma member_settled : settled c m = true -> (c_st c = CStable \/ c_st c = CEmpty) -> tw c m = 0 /\ mp c m = 0.
  Proof.
    intros S St. pose proof member_checked as H. unfold chk_member in H. cbv zeta in H.
    apply andb_true_iff in H. destruct H as [_ H]. fold (settled c m) in H. rewrite S in H.
    assert (E : cstate_eqb (a_st (absm c m)) CStable || cstate_eqb (a_st (absm c m)) CEmpty = true).
    { change (a_st (absm c m)) with (c_st c). destruct St as [-> | ->]; reflexivity. }
    rewrite E in H. cbn [andb negb orb] in H. apply andb_true_iff in H. destruct H as [H Q].
    apply andb_true_iff in H. destruct H as [T K]. apply Nat.eqb_eq in T, K, Q.
    split; [exact T|]. unfold mp. rewrite (mp_parts (absm c m) L), K, Q. reflexivity.
  Qed.
End Member.

Lemma good_parts : forall a a' dk r, good a a' dk r = true ->
  a_live a' = true /\ wf_a a' = true /\ coh_a a' = true /\ tw_a a' + dk <= tw_a a
  /\ (a_live a = true -> match r with Some true => mp_a a' < mp_a a | Some false => mp_a a' <= mp_a a | None => True end).
Proof.
  intros a a' dk r H. unfold good, good_at, inv_a in H.
  apply andb_true_iff in H; destruct H as [H H4]. apply andb_true_iff in H; destruct H as [H H3].
  apply andb_true_iff in H; destruct H as [H1 H2]. apply andb_true_iff in H2; destruct H2 as [H2 H2'].
  apply Nat.leb_le in H3. repeat split; try assumption.
  intros L. destruct r as [real|]; [|exact I]. pose proof (pot_le_mp real a a' L H1 H4) as M. destruct real; exact M.
Qed.

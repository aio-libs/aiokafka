(* C07_env.v — the read-committed view of the partition logs of model/C07_Txn.v under appends of
   data and of markers. *)
From Coq Require Import ZArith List Bool Arith Lia.
From Verif Require Import Imp TxnTable C16_TxnApi C07_Txn C07_client.
Import ListNotations.

Lemma log_of_app p g h : log_of p (g ++ h) = log_of p g ++ log_of p h.
Proof. unfold log_of. rewrite filter_app, map_app. reflexivity. Qed.

Lemma log_of_one_eq p e : log_of p [(p, e)] = [e].
Proof. unfold log_of. simpl. rewrite Nat.eqb_refl. reflexivity. Qed.

Lemma log_of_one_neq p q e : q <> p -> log_of p [(q, e)] = [].
Proof. intros H. unfold log_of. simpl. apply Nat.eqb_neq in H. rewrite H. reflexivity. Qed.

Lemma log_of_markers_notin p ps ep c : ~ In p ps -> log_of p (markers ps ep c) = [].
Proof.
  induction ps as [|q ps IH]; intros H; [reflexivity|].
  unfold markers, log_of in *. simpl in *.
  destruct (Nat.eqb q p) eqn:E.
  - apply Nat.eqb_eq in E. exfalso. apply H. auto.
  - apply IH. intros K. apply H. auto.
Qed.

Lemma log_of_markers_in p ps ep c : In p ps ->
  exists n, log_of p (markers ps ep c) = Marker ep c :: repeat (Marker ep c) n.
Proof.
  induction ps as [|q ps IH]; intros H; [destruct H|].
  unfold markers, log_of in *. simpl.
  destruct (Nat.eqb q p) eqn:E.
  - simpl. destruct (in_dec Nat.eq_dec p ps) as [I|I].
    + destruct (IH I) as (n & Hn). rewrite Hn. exists (S n). reflexivity.
    + pose proof (log_of_markers_notin p ps ep c I) as Hn. unfold markers, log_of in Hn. rewrite Hn.
      exists 0%nat. reflexivity.
  - apply Nat.eqb_neq in E. destruct H as [H|H]; [congruence|]. apply IH. exact H.
Qed.

Lemma rc_state_app l l' : rc_state (l ++ l') = fold_left rc_step l' (rc_state l).
Proof. unfold rc_state. apply fold_left_app. Qed.

Lemma rc_markers ep c n st :
  fold_left rc_step (Marker ep c :: repeat (Marker ep c) n) st =
  ([], if c then snd st ++ fst st else snd st).
Proof.
  destruct st as [open vis]. simpl.
  assert (K : forall n v, fold_left rc_step (repeat (Marker ep c) n) ([], v) = ([], v)).
  { induction n0 as [|m IH]; intros v; simpl; [reflexivity|].
    destruct c; simpl; [rewrite app_nil_r|]; apply IH. }
  destruct c; simpl; apply K.
Qed.

Lemma open_append_data p q g ep tg items :
  rc_open_t (log_of p (g ++ [(q, Data ep tg items)])) =
  rc_open_t (log_of p g) ++ (if Nat.eqb q p then map (fun x => (tg, x)) items else []).
Proof.
  rewrite log_of_app. destruct (Nat.eqb q p) eqn:E.
  - apply Nat.eqb_eq in E. subst q. rewrite log_of_one_eq. unfold rc_open_t. rewrite rc_state_app. simpl.
    destruct (rc_state (log_of p g)). reflexivity.
  - apply Nat.eqb_neq in E. rewrite log_of_one_neq by exact E. rewrite !app_nil_r. reflexivity.
Qed.

Lemma view_append_data p q g ep tg items :
  rc_view_t (log_of p (g ++ [(q, Data ep tg items)])) = rc_view_t (log_of p g).
Proof.
  rewrite log_of_app. destruct (Nat.eqb q p) eqn:E.
  - apply Nat.eqb_eq in E. subst q. rewrite log_of_one_eq. unfold rc_view_t. rewrite rc_state_app. simpl.
    destruct (rc_state (log_of p g)). reflexivity.
  - apply Nat.eqb_neq in E. rewrite log_of_one_neq by exact E. rewrite app_nil_r. reflexivity.
Qed.

Lemma open_markers p g ps ep c :
  rc_open_t (log_of p (g ++ markers ps ep c)) = if memn p ps then [] else rc_open_t (log_of p g).
Proof.
  rewrite log_of_app. destruct (memn p ps) eqn:M.
  - apply memn_In in M. destruct (log_of_markers_in p ps ep c M) as (n & Hn). rewrite Hn.
    unfold rc_open_t. rewrite rc_state_app, rc_markers. reflexivity.
  - assert (N : ~ In p ps) by (intros K; apply memn_In in K; congruence).
    rewrite (log_of_markers_notin p ps ep c N), app_nil_r. reflexivity.
Qed.

Lemma view_markers p g ps ep c :
  rc_view_t (log_of p (g ++ markers ps ep c)) =
  if memn p ps && c then rc_view_t (log_of p g) ++ rc_open_t (log_of p g) else rc_view_t (log_of p g).
Proof.
  rewrite log_of_app. destruct (memn p ps) eqn:M.
  - apply memn_In in M. destruct (log_of_markers_in p ps ep c M) as (n & Hn). rewrite Hn.
    unfold rc_view_t, rc_open_t. rewrite rc_state_app, rc_markers. destruct c; reflexivity.
  - assert (N : ~ In p ps) by (intros K; apply memn_In in K; congruence).
    rewrite (log_of_markers_notin p ps ep c N), app_nil_r. reflexivity.
Qed.

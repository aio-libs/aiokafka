(* Basic lemmas for the quiet-period model (model/C06_Converge.v): lists of members, names, sums. *)
From Coq Require Import ZArith List Bool Arith Lia.
From Verif Require Import DispatchActs HeartbeatDispatch JoinRetryDispatch JoinDispatch SyncDispatch CommitDispatch
  C06_Converge.
Import ListNotations.
Local Open Scope nat_scope.

Lemma memb_In : forall x l, memb x l = true <-> In x l.
Proof.
  intros x l. unfold memb. rewrite existsb_exists. split.
  - intros [y [Hy E]]. apply Nat.eqb_eq in E. subst. exact Hy.
  - intros H. exists x. split; [exact H | apply Nat.eqb_refl].
Qed.

Lemma memb_false_In : forall x l, memb x l = false <-> ~ In x l.
Proof.
  intros x l. rewrite <- memb_In. destruct (memb x l).
  - split; intros H; [discriminate | exfalso; apply H; reflexivity].
  - split; intros H; [intro; discriminate | reflexivity].
Qed.

Lemma nodupb_NoDup : forall l, nodupb l = true <-> NoDup l.
Proof.
  induction l as [|x r IH]; simpl.
  - split; [constructor | reflexivity].
  - rewrite andb_true_iff, negb_true_iff, memb_false_In, IH. split.
    + intros [A B]. constructor; assumption.
    + intros H. inversion H; subst. split; assumption.
Qed.

Lemma getm_In : forall i ms m, getm i ms = Some m -> In m ms /\ m_name m = i.
Proof.
  intros i ms m H. unfold getm in H. apply find_some in H. destruct H as [A B].
  apply Nat.eqb_eq in B. split; assumption.
Qed.

Lemma getm_unique : forall i ms m, NoDup (map m_name ms) -> getm i ms = Some m ->
  forall m2, In m2 ms -> m_name m2 = i -> m2 = m.
Proof.
  intros i ms. induction ms as [|a r IH]; intros m ND H m2 Hin Hn.
  - inversion Hin.
  - simpl in ND. inversion ND as [|? ? Hnot ND']; subst. unfold getm in H. simpl in H.
    destruct (m_name a =? m_name m2) eqn:E.
    + inversion H; subst. destruct Hin as [->|Hin]; [reflexivity|].
      exfalso. apply Hnot. apply Nat.eqb_eq in E. rewrite E. apply in_map. exact Hin.
    + destruct Hin as [->|Hin]; [rewrite Nat.eqb_refl in E; discriminate|].
      apply (IH m ND' H m2 Hin eq_refl).
Qed.

Lemma updm_names : forall i f ms, (forall m, m_name (f m) = m_name m) ->
  map m_name (updm i f ms) = map m_name ms.
Proof.
  intros i f ms Hf. unfold updm. rewrite map_map. apply map_ext. intros m.
  destruct (m_name m =? i); [apply Hf | reflexivity].
Qed.

Lemma updm_length : forall i f ms, length (updm i f ms) = length ms.
Proof. intros. unfold updm. apply map_length. Qed.

Lemma in_updm : forall i f ms m', In m' (updm i f ms) ->
  exists m, In m ms /\ ((m_name m = i /\ m' = f m) \/ (m_name m <> i /\ m' = m)).
Proof.
  intros i f ms m' H. unfold updm in H. apply in_map_iff in H. destruct H as [m [E Hin]].
  exists m. split; [exact Hin|]. destruct (m_name m =? i) eqn:En.
  - left. apply Nat.eqb_eq in En. split; [exact En | symmetry; exact E].
  - right. apply Nat.eqb_neq in En. split; [exact En | symmetry; exact E].
Qed.

Lemma getm_updm_same : forall i f ms m, (forall m, m_name (f m) = m_name m) ->
  getm i ms = Some m -> getm i (updm i f ms) = Some (f m).
Proof.
  intros i f ms. induction ms as [|a r IH]; intros m Hf H; [discriminate|].
  unfold getm, updm in *. simpl in *. destruct (m_name a =? i) eqn:E.
  - inversion H; subst. rewrite Hf, E. reflexivity.
  - rewrite E. apply IH; assumption.
Qed.

Lemma sum_app : forall a b, sum (a ++ b) = sum a + sum b.
Proof. induction a; intros; simpl; [reflexivity | rewrite IHa; lia]. Qed.

Lemma sum_map_le : forall {A} (f g : A -> nat) l, (forall x, In x l -> f x <= g x) -> sum (map f l) <= sum (map g l).
Proof.
  intros A f g l. induction l as [|a r IH]; intros H; simpl; [lia|].
  pose proof (H a (or_introl eq_refl)). assert (sum (map f r) <= sum (map g r)) by (apply IH; intros; apply H; right; assumption). lia.
Qed.

Lemma sum_map_bound : forall {A} (f : A -> nat) l k, (forall x, In x l -> f x <= k) -> sum (map f l) <= k * length l.
Proof.
  intros A f l k. induction l as [|a r IH]; intros H; simpl; [lia|].
  pose proof (H a (or_introl eq_refl)). assert (sum (map f r) <= k * length r) by (apply IH; intros; apply H; right; assumption). lia.
Qed.

(* sum over the members after a step of [i]: the others pointwise, [i] with a gain of [k] *)
Lemma sum_map_updm : forall (F F' : member -> nat) i (g : member -> member) ms m k,
  NoDup (map m_name ms) -> getm i ms = Some m ->
  (forall m0, In m0 ms -> m_name m0 <> i -> F' (g m0) <= F m0) ->
  F' (g m) + k <= F m ->
  sum (map F' (map g ms)) + k <= sum (map F ms).
Proof.
  intros F F' i g ms. induction ms as [|a r IH]; intros m k ND G Ho Hi; [discriminate|].
  simpl in ND. inversion ND as [|? ? Hnot ND']; subst. unfold getm in G. simpl in G. simpl.
  destruct (m_name a =? i) eqn:E.
  - assert (Ea : a = m) by congruence. apply Nat.eqb_eq in E. rewrite Ea in *.
    assert (sum (map F' (map g r)) <= sum (map F r)).
    { rewrite map_map. apply sum_map_le. intros x Hx. apply Ho; [right; exact Hx|].
      intro En. apply Hnot. rewrite E, <- En. apply in_map. exact Hx. }
    lia.
  - apply Nat.eqb_neq in E. pose proof (Ho a (or_introl eq_refl) E).
    assert (sum (map F' (map g r)) + k <= sum (map F r)).
    { apply (IH m k ND' G); [|exact Hi]. intros m0 H0 Hn. apply Ho; [right; exact H0 | exact Hn]. }
    lia.
Qed.

Lemma member_eta : forall m, m = mkM (m_name m) (m_live m) (m_id m) (m_gen m) (m_ph m) (m_rejoin m) (m_ck m) (m_hb m)
  (m_focus m) (m_inbox m) (m_hbin m) (m_cmin m).
Proof. destruct m; reflexivity. Qed.

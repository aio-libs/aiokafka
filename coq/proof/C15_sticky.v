(* C15 — sticky assignor keeps assignments that need not move (StickyCtl level). *)
From Coq Require Import Arith List Bool Lia PeanoNat ZArith.
From Verif Require Import C14_Assignors C14_lists C14_Sticky C14_checkers C14_sticky C14_rr.
Import ListNotations.

Lemma valid_drop_id : forall ppt ms st, ids_nodup ms -> valid ppt ms st -> drop ppt ms st = st.
Proof.
  intros ppt ms st Hi [_ [Hv _]]. unfold drop. apply filter_all.
  intros [m x] Hin. simpl. apply potential_b_spec; auto.
Qed.

Theorem ctl_unchanged_fixpoint : forall ppt ms st0 assigns reassigns obs r,
  ids_nodup ms -> valid ppt ms st0 -> kip54_balanced ms st0 ->
  ctl_run ppt ms [] st0 assigns reassigns obs = Some r ->
  cr_final r = st0 /\ assigns = [] /\ reassigns = [].
Proof.
  intros ppt ms st0 assigns reassigns obs r Hi Hv Hk H.
  destruct (ctl_run_inv H) as [[E2 [_ [[mv E3] [_ Ef]]]] _].
  rewrite (valid_drop_id _ _ _ Hi Hv) in E2.
  destruct Hv as [_ [_ Hcomp]].
  assert (Ea : assigns = []).
  { (* an Assign needs an unowned partition with a potential consumer; st0 is complete *)
    destruct assigns as [|[x c] rest]; auto. exfalso. cbn [ctl_assigns] in E2.
    destruct (ctl_assign ppt ms st0 (x, c)) eqn:E; [|discriminate].
    apply ctl_assign_inv in E. destruct E as [Eo [_ [Hp _]]].
    apply potential_b_spec in Hp; auto. destruct Hp as [Hs Hp].
    destruct (Hcomp x) as [m Hm]; [split; eauto|].
    apply owner_none_iff in Eo. apply Eo, (in_map snd _ _ Hm). }
  subst assigns. inversion E2 as [E2']. rewrite <- E2' in *.
  assert (Eb : reassigns = []).
  { (* without a previous owner a Move needs a potential consumer two below the owner *)
    destruct reassigns as [|[[x c'] q] rest]; auto. exfalso. cbn [ctl_reassigns] in E3.
    destruct (ctl_reassign ppt ms [] (scope ppt ms st0) (st0, []) (x, c', q)) eqn:E; [|discriminate].
    apply ctl_reassign_inv in E. destruct E as [_ [_ [c [oq [Eo [_ [[G _] _]]]]]]].
    unfold gen_trigger in G. apply existsb_exists in G. destruct G as [o [Ho Hlt]].
    apply Nat.ltb_lt in Hlt. apply potentials_In in Ho.
    pose proof (proj1 (potential_b_iff _ _ _ _) Ho) as [Hoid _].
    apply potential_b_spec in Ho; auto. destruct Ho as [Hos _].
    pose proof (Hk c x o (owner_some_In _ _ _ Eo) Hoid Hos). lia. }
  subst reassigns. inversion E3. split; auto. rewrite Ef. destruct obs; congruence.
Qed.

Lemma less_loaded_spec : forall st a b,
  if less_loaded st a b then load st a <= load st b else load st b <= load st a.
Proof.
  intros. unfold less_loaded.
  destruct (Nat.ltb_spec (load st a) (load st b)); simpl; [lia|].
  destruct (Nat.eqb_spec (load st a) (load st b)); simpl; [destruct (a <? b)|]; lia.
Qed.

Lemma least_loaded_min : forall st cs c, least_loaded st cs = Some c ->
  forall b, In b cs -> load st c <= load st b.
Proof.
  induction cs as [|a r IH]; simpl; intros c H b Hb; [tauto|].
  destruct (least_loaded st r) as [b0|] eqn:E.
  - pose proof (less_loaded_spec st b0 a) as L. specialize (IH b0 eq_refl).
    destruct (less_loaded st b0 a); inversion H; subst; destruct Hb as [->|Hb]; auto.
    specialize (IH b Hb). lia.
  - apply least_loaded_none in E. subst r. inversion H; subst. destruct Hb as [->|[]]. auto.
Qed.

Lemma load_app : forall (a b : list (nat * (nat * nat))) m, load (a ++ b) m = load a m + load b m.
Proof. intros. unfold load. rewrite filter_app, app_length. reflexivity. Qed.

(* identical subscriptions: a partition that anybody may consume, everybody may consume *)
Lemma identical_all_potential : forall ppt ms c0 c x, ids_nodup ms -> identical_subs ms ->
  potential_b ppt ms c0 x = true -> In c (map fst ms) -> potential_b ppt ms c x = true.
Proof.
  intros ppt ms c0 c x Hi Hid H0 Hc.
  apply potential_b_spec in H0 as [Hs Hp]; auto.
  apply potential_b_spec; auto. split; [eapply identical_subscribed; eauto|exact Hp].
Qed.

(* the least loaded member of all takes the partition: the loads stay within one *)
Lemma ctl_assign_within_one : forall ppt ms st a st', ids_nodup ms -> identical_subs ms ->
  pairs_within_one st (map fst ms) = true ->
  ctl_assign ppt ms st a = Some st' ->
  pairs_within_one st' (map fst ms) = true /\ incl st st'.
Proof.
  intros ppt ms st [x c] st' Hi Hid Hw H.
  apply ctl_assign_inv in H. destruct H as [_ [E [Hcp ->]]].
  assert (Hall : potentials ppt ms x = map fst ms).
  { apply filter_all. intros m Hm. eapply identical_all_potential; eauto. }
  rewrite Hall in E. pose proof (least_loaded_min _ _ _ E) as Hmin.
  split; [|apply incl_appl, incl_refl].
  rewrite pairs_within_one_iff in *. intros a b Ha Hb. rewrite !load_app.
  specialize (Hw a b Ha Hb). specialize (Hmin b Hb).
  unfold load at 2 4. simpl.
  destruct (Nat.eqb_spec c a), (Nat.eqb_spec c b); simpl; subst; lia.
Qed.

Lemma ctl_assigns_within_one : forall ppt ms l st st', ids_nodup ms -> identical_subs ms ->
  pairs_within_one st (map fst ms) = true ->
  ctl_assigns ppt ms st l = Some st' ->
  pairs_within_one st' (map fst ms) = true /\ incl st st'.
Proof.
  induction l as [|a r IH]; simpl; intros st st' Hi Hid Hw H.
  - inversion H; subst. split; auto. apply incl_refl.
  - destruct (ctl_assign ppt ms st a) as [st1|] eqn:E; [|discriminate].
    destruct (ctl_assign_within_one _ _ _ _ _ Hi Hid Hw E) as [Hw1 I1].
    destruct (IH _ _ Hi Hid Hw1 H) as [Hw2 I2]. split; auto.
    eapply incl_tran; eauto.
Qed.

Theorem ctl_minus_no_survivor_moves : forall ppt ms prev st0 assigns reassigns obs r,
  ids_nodup ms -> identical_subs ms ->
  pairs_within_one (drop ppt ms st0) (map fst ms) = true ->
  ctl_run ppt ms prev st0 assigns reassigns obs = Some r ->
  reassigns = [] /\ incl (drop ppt ms st0) (cr_final r).
Proof.
  intros ppt ms prev st0 assigns reassigns obs r Hi Hid Hw H.
  destruct (ctl_run_inv H) as [[E2 [_ [[mv E3] [_ Ef]]]] _].
  destruct (ctl_assigns_within_one _ _ _ _ _ Hi Hid Hw E2) as [Hw2 I2].
  assert (Er : reassigns = []).
  { (* a Move needs `_is_balanced()` to fail, but the members in scope are within one *)
    destruct reassigns as [|[[x c'] q] rest]; auto. exfalso. cbn [ctl_reassigns] in E3.
    destruct (ctl_reassign _ _ _ _ _ (x, c', q)) eqn:E; [|discriminate].
    apply ctl_reassign_inv in E. destruct E as [Hbal _].
    unfold is_balanced_b in Hbal. apply orb_false_iff in Hbal. destruct Hbal as [Hbal _].
    rewrite pairs_within_one_iff in Hw2. rewrite <- not_true_iff_false in Hbal. apply Hbal.
    apply pairs_within_one_iff. intros a b Ha Hb.
    apply Hw2; [apply filter_In in Ha | apply filter_In in Hb]; tauto. }
  subst reassigns. inversion E3 as [[E3a E3b]].
  split; auto. rewrite Ef, <- E3a. destruct obs; auto.
Qed.

Lemma incl_moved_among_nil : forall keep (old new : list (nat * (nat * nat))),
  NoDup (map snd new) -> incl old new -> moved_among keep old new = [].
Proof.
  intros keep old new Hn Hi. unfold moved_among.
  induction old as [|[m x] old IH]; simpl; auto.
  rewrite IH by (intros e He; apply Hi; simpl; auto).
  rewrite (owner_In_nodup new x m Hn) by (apply Hi; simpl; auto).
  rewrite Nat.eqb_refl. destruct (mem_nat m keep); reflexivity.
Qed.

(* in the vocabulary of the property: no partition moves between two members of [keep], whatever [keep] is *)
Theorem ctl_minus_moved_nil : forall ppt ms prev st0 assigns reassigns obs r keep,
  ids_nodup ms -> identical_subs ms -> NoDup (map snd st0) ->
  pairs_within_one (drop ppt ms st0) (map fst ms) = true ->
  ctl_run ppt ms prev st0 assigns reassigns obs = Some r ->
  moved_among keep (drop ppt ms st0) (cr_final r) = [].
Proof.
  intros ppt ms prev st0 assigns reassigns obs r keep Hi Hid Hn Hw H.
  destruct (ctl_minus_no_survivor_moves _ _ _ _ _ _ _ _ Hi Hid Hw H) as [_ Hincl].
  apply incl_moved_among_nil; auto.
  destruct (ctl_run_inv H) as [L _].
  destruct (ctl_log_sound_valid Hn L) as [[Hn2 _] [[Hn3 _] _]].
  destruct L as [_ [_ [_ [_ Ef]]]]. rewrite Ef. destruct obs; auto.
Qed.

(* claims (member, generation, partitions) as ownership triples, and as the entries partition ->
   [(generation, member)] under which _init_current_assignments files them *)
Definition claimed_triples (claims : list (nat * Z * list (nat * nat))) : list (nat * (nat * nat)) :=
  flat_map (fun cl => map (pair (fst (fst cl))) (snd cl)) claims.
Definition claim_entries (claims : list (nat * Z * list (nat * nat)))
  : list ((nat * nat) * list (Z * nat)) :=
  flat_map (fun cl => map (fun x => (x, [(snd (fst cl), fst (fst cl))])) (snd cl)) claims.

Lemma claim_put_fresh : forall acc x g c, ~ In x (map fst acc) ->
  claim_put acc x g c = acc ++ [(x, [(g, c)])].
Proof.
  induction acc as [|[y gens] r IH]; simpl; intros x g c H; auto.
  destruct (tp_eqb_spec y x) as [->|_]; [tauto|].
  rewrite IH by tauto. reflexivity.
Qed.

Lemma claim_fold_fresh : forall xs acc g c,
  NoDup (map fst acc ++ xs) ->
  fold_left (fun acc' x => claim_put acc' x g c) xs acc = acc ++ map (fun x => (x, [(g, c)])) xs.
Proof.
  induction xs as [|x xs IH]; simpl; intros acc g c Hn.
  - rewrite app_nil_r. reflexivity.
  - rewrite claim_put_fresh, IH.
    + rewrite <- app_assoc. reflexivity.
    + rewrite map_app, <- app_assoc. exact Hn.
    + apply NoDup_remove_2 in Hn. rewrite in_app_iff in Hn. tauto.
Qed.

Lemma claim_table_fresh : forall claims acc,
  NoDup (map fst acc ++ flat_map snd claims) ->
  fold_left (fun acc cl => let '(c, g, xs) := cl in
                           fold_left (fun acc' x => claim_put acc' x g c) xs acc) claims acc
  = acc ++ claim_entries claims.
Proof.
  induction claims as [|[[c g] xs] r IH]; simpl; intros acc Hn.
  - rewrite app_nil_r. reflexivity.
  - rewrite claim_fold_fresh.
    + rewrite IH.
      * unfold claim_entries. simpl. rewrite <- app_assoc. reflexivity.
      * rewrite map_app, map_map. simpl. rewrite map_id, <- app_assoc. exact Hn.
    + rewrite app_assoc in Hn. apply NoDup_app_l in Hn. exact Hn.
Qed.

(* C10_py_proof.v — the (repaired) pure-Python readers always terminate and end in SDone or an
   ordinary exception.  (They contain no instrumented read: memory safety is the interpreter's.) *)
From Coq Require Import ZArith List Bool Lia ZifyBool.
From Verif Require Import C10_Base C10_DecodeSafePy C10_wp.
Import ListNotations.
Open Scope Z_scope.

Local Notation fx := fx_repaired.

(* the variant: a continuation byte adds 7 to [shift], and from 64 on the loop raises *)
Lemma py_varint_loop_wp buf : forall n pos shift result,
  0 <= pos -> shift <= 63 -> 63 - shift < 7 * Z.of_nat n ->
  wp (py_varint_loop n buf pos shift result) (fun r => pos < snd r <= zlen buf).
Proof.
  induction n; intros pos shift result Hp Hs Hf.
  - lia.
  - cbn [py_varint_loop].
    step py_getitem_wp. intros b Hb. cbv zeta.
    destruct (b <? 128); [cbn [wp snd]; lia|].
    destruct (64 <=? shift + 7) eqn:E; [exact I|].
    mono IHn. intros r Hr. lia.
Qed.

Lemma py_varint_wp buf pos :
  0 <= pos -> wp (py_varint buf pos) (fun r => pos < snd r <= zlen buf).
Proof.
  intros. unfold py_varint. step py_getitem_wp. intros r Hr.
  destruct ((r <? 128) && Z.even r); [cbn [wp snd]; lia|].
  destruct (r <? 128); [cbn [wp snd]; lia|].
  mono py_varint_loop_wp. intros x Hx. lia.
Qed.

Lemma py_opt_bytes_pair buf p n : exists o q, py_opt_bytes buf p n = (o, q) /\ p <= q.
Proof. unfold py_opt_bytes. destruct (0 <=? n) eqn:E; eexists _, _; (split; [reflexivity|lia]). Qed.

Lemma py_headers_wp buf : forall fuel p hc acc,
  0 <= p -> (0 < fuel)%nat -> zlen buf - p < Z.of_nat fuel ->
  wp (py_headers fuel buf p hc acc) (fun r => p <= snd r).
Proof.
  induction fuel; intros p hc acc Hp H0 Hf.
  - lia.
  - cbn [py_headers]. destruct (hc =? 0); [cbn [wp snd]; lia|].
    pairstep py_varint_wp klen p1 H1.
    destruct (klen <? 0) eqn:Ek; [exact I|].
    destruct (negb (utf8_ok (py_slice buf p1 (p1 + klen)))); [exact I|].
    pairstep py_varint_wp vlen p2 H2.
    destruct (py_opt_bytes_pair buf p2 vlen) as (hval & p3 & -> & H3).
    mono IHfuel. intros r Hr. lia.
Qed.

Lemma py_read_msg_wp h buf pos :
  0 <= pos -> wp (py_read_msg h buf pos) (fun r => pos < zlen buf /\ pos < snd r).
Proof.
  intros Hp. unfold py_read_msg.
  pairstep py_varint_wp rlen p1 H1.
  pairstep py_varint_wp attrs p2 H2.
  pairstep py_varint_wp tsd p3 H3.
  pairstep py_varint_wp offd p4 H4.
  pairstep py_varint_wp klen p5 H5.
  destruct (py_opt_bytes_pair buf p5 klen) as (rkey & p6 & -> & H6).
  pairstep py_varint_wp vlen p7 H7.
  destruct (py_opt_bytes_pair buf p7 vlen) as (rval & p8 & -> & H8).
  pairstep py_varint_wp hc p9 H9.
  destruct (hc <? 0); [exact I|].
  step py_headers_wp. { apply fuel_ok; lia. }
  intros [hs p10] H10; cbn [snd] in H10; cbv beta iota zeta.
  destruct (negb (p10 - p1 =? rlen)); [exact I|]. cbn [wp snd]. lia.
Qed.

Lemma py_catch_ok e : okf e -> okf (py_catch e).
Proof.
  destruct e; cbn; auto. intros _.
  destruct (_ || _)%bool; exact I.
Qed.

Lemma py_v2_iter_ok h buf : forall fuel pos idx acc,
  0 <= pos -> (0 < fuel)%nat -> zlen buf - pos < Z.of_nat fuel ->
  ok_status (snd (py_v2_iter fuel h buf pos idx acc)).
Proof.
  induction fuel; intros pos idx acc Hp H0 Hf.
  - lia.
  - cbn [py_v2_iter]. destruct (ph_num_records h <=? idx).
    + destruct (pos =? zlen buf); exact I.
    + pose proof (py_read_msg_wp h buf pos Hp) as W.
      destruct (py_read_msg h buf pos) as [[r p]|e]; cbn [wp snd] in W.
      * apply IHfuel; lia.
      * cbn [snd ok_status]. apply py_catch_ok. exact W.
Qed.

Lemma py_v2_uncompress_wp dec h buf :
  wp (py_v2_uncompress dec h buf) (fun r => 0 <= snd r).
Proof.
  unfold py_v2_uncompress.
  destruct (ph_attrs h mod 8 =? 0); [cbn [wp snd]; lia|].
  destruct (4 <? ph_attrs h mod 8); [exact I|].
  destruct (dec _ _); [cbn [wp snd]; lia|exact I].
Qed.

Theorem py_v2_run_ok crc32c dec validate buf : ok_status (snd (py_v2_run crc32c dec validate buf)).
Proof.
  unfold py_v2_run.
  eapply ok_match with (Q := fun _ => True).
  { unfold py_v2_new. step py_unpack_from_wp. intros l _. exact I. }
  intros h _. destruct (validate && negb (py_v2_validate crc32c h buf)); [exact I|].
  okstep py_v2_uncompress_wp. intros [b pos] U; cbn [snd] in U.
  apply py_v2_iter_ok; [lia|lia|apply fuel_ok; lia].
Qed.

Lemma py_i32_wp buf pos : wp (py_i32 buf pos) (fun _ => True).
Proof. unfold py_i32. step py_unpack_from_wp. intros l _. exact I. Qed.

Lemma py_l_read_header_wp magic buf pos :
  0 <= pos -> wp (py_l_read_header magic buf pos) (fun _ => pos + 18 <= zlen buf).
Proof.
  intros. unfold py_l_read_header. step py_unpack_from_pos. intros l Hl. cbn [wp].
  destruct (magic =? 0); lia.
Qed.

Lemma py_l_key_value_wp buf pos : wp (py_l_key_value buf pos) (fun _ => True).
Proof.
  unfold py_l_key_value. step py_i32_wp. intros ksz _. cbv zeta.
  destruct (if ksz =? -1 then _ else _) as [key p].
  step py_i32_wp. intros vsz _. exact I.
Qed.

Lemma py_l_payload_wp buf ko : wp (py_l_payload buf ko) (fun _ => True).
Proof.
  unfold py_l_payload. cbv zeta. step py_i32_wp. intros ksz _.
  step py_i32_wp. intros vsz _. destruct (vsz =? -1); exact I.
Qed.

Lemma py_all_headers_wp magic buf : forall fuel pos acc,
  0 <= pos -> Z.max 0 (zlen buf - pos) < Z.of_nat fuel ->
  wp (py_all_headers fx fuel magic buf pos acc) (fun _ => True).
Proof.
  induction fuel; intros pos acc Hp Hf.
  - lia.
  - cbn [py_all_headers fx_pyhdrs fx_repaired andb].
    destruct (pos <? zlen buf) eqn:E; [|exact I].
    step py_l_read_header_wp. intros h Hh.
    destruct (l_length h <? 0) eqn:El; [exact I|].
    apply IHfuel; lia.
Qed.

Lemma py_l_inner_ok main tstype abs ko buf : forall hs acc,
  ok_status (snd (py_l_inner main tstype abs ko buf hs acc)).
Proof.
  induction hs as [|[h mp] hs IH]; intros acc; cbn [py_l_inner]; [exact I|].
  destruct (negb (l_attrs h mod 8 =? 0)); [exact I|]. cbv zeta.
  okstep py_l_key_value_wp. intros [key value] _. apply IH.
Qed.

Lemma py_l_iter_ok dec magic main buf : ok_status (snd (py_l_iter dec fx magic main buf)).
Proof.
  unfold py_l_iter. cbv zeta.
  destruct (l_attrs main mod 8 =? 0).
  - okstep py_l_key_value_wp. intros [key value] _. exact I.
  - okstep py_l_payload_wp. intros data _.
    destruct (3 <? l_attrs main mod 8); [exact I|].
    destruct ((l_attrs main mod 8 =? 3) && (magic =? 0)); [exact I|].
    destruct (dec _ data) as [out|e]; [|exact I].
    okstep py_all_headers_wp. { unfold zlen; lia. }
    intros hs _.
    destruct (0 <? magic).
    + destruct (rev hs) as [|[last lp] t]; [exact I|]. apply py_l_inner_ok.
    + apply py_l_inner_ok.
Qed.

Theorem py_l_run_ok crc32 dec validate magic buf : ok_status (snd (py_l_run crc32 dec fx validate magic buf)).
Proof.
  unfold py_l_run.
  eapply ok_match with (Q := fun _ => True).
  { unfold py_l_new. step py_l_read_header_wp. intros h _.
    destruct (negb _); [exact I|]. destruct (negb _); exact I. }
  intros h _. destruct (validate && negb (py_l_validate crc32 h buf)); [exact I|].
  apply py_l_iter_ok.
Qed.

Lemma py_cache_next_wp buf pos :
  wp (py_cache_next buf pos)
     (fun r => match snd r with
               | None => True
               | Some s => s = py_slice buf pos (fst r) /\ fst r <= zlen buf
               end).
Proof.
  unfold py_cache_next. cbv zeta.
  destruct (zlen buf - pos <? 12); [exact I|].
  step py_i32_wp. intros length _.
  destruct (zlen buf <? pos + 12 + length) eqn:E; [exact I|].
  cbn [wp fst snd]. split; [reflexivity|lia].
Qed.

(* the slice handed out last was buf[q:pos]; the measure is the distance of norm(q) to the end *)
Theorem py_mr_loop_ok crc32c crc32 dec validate buf : forall fuel pos next acc,
  (0 < fuel)%nat ->
  (next = None \/
   exists q, next = Some (py_slice buf q pos) /\ pos <= zlen buf /\
             zlen buf - py_norm (zlen buf) q < Z.of_nat fuel) ->
  ok_status (snd (py_mr_loop crc32c crc32 dec fx fuel validate buf pos next acc)).
Proof.
  pose proof (zlen_nonneg buf) as Hn.
  induction fuel; intros pos next acc H0 Hinv.
  - lia.
  - cbn [py_mr_loop]. destruct Hinv as [->|[q [-> [Hpos Hf]]]]; [exact I|].
    destruct (zlen (py_slice buf q pos) <? 26) eqn:E; [exact I|].
    rewrite zlen_py_slice in E.
    okstep py_cache_next_wp. intros [pos' next'] W; cbn [fst snd] in W.
    set (slice := py_slice buf q pos) in *.
    assert (R : ok_status (snd (if 2 <=? nth 16 slice 0
                                then py_v2_run crc32c dec validate slice
                                else py_l_run crc32 dec fx validate (nth 16 slice 0) slice))).
    { destruct (2 <=? nth 16 slice 0); [apply py_v2_run_ok|apply py_l_run_ok]. }
    cbv zeta.
    destruct (if 2 <=? nth 16 slice 0 then _ else _) as [recs st]. cbn [snd] in R.
    destruct st as [|f]; [|exact R].
    pose proof (py_norm_range (zlen buf) q Hn). pose proof (py_norm_range (zlen buf) pos Hn).
    apply IHfuel; [lia|].
    destruct next' as [s|]; [right|left; reflexivity].
    destruct W as [-> Hle]. exists pos. split; [reflexivity|]. split; [assumption|]. lia.
Qed.

Theorem py_decode_ok crc32c crc32 dec validate buf : ok_status (snd (py_decode crc32c crc32 dec fx validate buf)).
Proof.
  unfold py_decode.
  okstep py_cache_next_wp. intros [pos next] W; cbn [fst snd] in W.
  apply py_mr_loop_ok; [lia|].
  destruct next as [s|]; [right|left; reflexivity].
  destruct W as [-> Hle]. exists 0. split; [reflexivity|]. split; [assumption|].
  pose proof (zlen_nonneg buf). unfold py_norm. change (0 <? 0) with false. cbv iota.
  unfold zlen in *. lia.
Qed.

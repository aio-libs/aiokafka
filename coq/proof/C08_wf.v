(* C08_wf.v — what every constructed log satisfies (invariant of [build]) and the facts the
   filter proofs use: batches sorted and disjoint, every transactional batch belongs to
   exactly one transaction of its producer, markers sit where their transaction ends. *)
From Coq Require Import ZArith List Bool Lia ZifyBool Sorted.
From Verif Require Export ListFacts.
From Verif Require Import Imp C08_Log.
Import ListNotations.
Open Scope Z_scope.

(* record offsets strictly increasing inside [lo, hi] *)
Fixpoint recs_ok (lo hi : Z) (rs : list rec) : Prop :=
  match rs with
  | [] => True
  | r :: rs' => lo <= r_off r <= hi /\ recs_ok (r_off r + 1) hi rs'
  end.

Definition batch_ok (b : batch) : Prop :=
  0 <= b_base b <= b_last b /\
  recs_ok (b_base b) (b_last b) (b_recs b) /\
  (b_ctl b = true -> b_last b = b_base b /\ exists tag, b_recs b = [mkrec (b_base b) tag]).

(* newest first; every batch ends below the fence, the rest below its base *)
Fixpoint rbs_ok (fence : Z) (l : list batch) : Prop :=
  match l with
  | [] => 0 <= fence
  | b :: l' => batch_ok b /\ b_last b < fence /\ rbs_ok (b_base b) l'
  end.

Record inv (s : lstate) : Prop := mkinv {
  i_bs : rbs_ok (leo s) (rbs s);
  i_open_range : forall p fo, In (p, fo) (opn s) -> 0 <= fo < leo s;
  i_open_nodup : NoDup (map fst (opn s));
  i_done_range : forall t, In t (dne s) -> 0 <= t_first t < t_last t /\ t_last t < leo s;
  i_done_marker : forall t, In t (dne s) ->
      In (marker_batch (t_last t) (t_pid t) (t_commit t)) (rbs s);
  i_done_disj : forall t1 t2, In t1 (dne s) -> In t2 (dne s) -> t_pid t1 = t_pid t2 ->
      t1 = t2 \/ t_last t1 < t_first t2 \/ t_last t2 < t_first t1;
  i_open_after : forall t fo, In t (dne s) -> In (t_pid t, fo) (opn s) -> t_last t < fo;
  i_cover : forall b, In b (rbs s) -> is_data_txn b = true ->
      (exists t, In t (dne s) /\ spans t b = true) \/
      (exists fo, In (b_pid b, fo) (opn s) /\ fo <= b_base b);
  i_ctl : forall b, In b (rbs s) -> b_ctl b = true ->
      (forall t, In t (dne s) -> t_pid t = b_pid b -> t_first t <= b_base b ->
                 t_last t <= b_base b) /\
      (forall fo, In (b_pid b, fo) (opn s) -> b_base b < fo)
}.

Lemma recs_ok_in : forall rs lo hi r, recs_ok lo hi rs -> In r rs -> lo <= r_off r <= hi.
Proof.
  induction rs as [|x rs IH]; cbn; intros lo hi r H I; [contradiction|].
  destruct H as (B & R). destruct I as [->|I]; [lia|]. specialize (IH _ _ _ R I). lia.
Qed.

Lemma rbs_ok_fence : forall l fence, rbs_ok fence l -> 0 <= fence.
Proof.
  induction l as [|b l IH]; cbn; intros fence H; [exact H|].
  destruct H as ((B & _) & L & R). specialize (IH _ R). lia.
Qed.

Lemma rbs_ok_mono : forall l f1 f2, rbs_ok f1 l -> f1 <= f2 -> rbs_ok f2 l.
Proof. destruct l; cbn; intros; [lia|intuition lia]. Qed.

Lemma rbs_ok_in : forall l fence b, rbs_ok fence l -> In b l -> batch_ok b /\ b_last b < fence.
Proof.
  induction l as [|x l IH]; cbn; intros fence b H I; [contradiction|].
  destruct H as (B & L & R). destruct I as [->|I]; [auto|].
  destruct (IH _ _ R I) as (B' & L'). destruct B as ((? & ?) & _). split; [auto|lia].
Qed.

Lemma find_open_some : forall p o fo, find_open p o = Some fo -> In (p, fo) o.
Proof.
  unfold find_open. intros p o fo H.
  destruct (find (fun e => fst e =? p) o) as [e|] eqn:E; [|discriminate].
  injection H as <-. apply find_some in E. destruct E as (I & Q). destruct e as [a b].
  cbn in *. assert (a = p) by lia. subst. exact I.
Qed.

Lemma find_open_none : forall p o fo, find_open p o = None -> ~ In (p, fo) o.
Proof.
  unfold find_open. intros p o fo H I.
  destruct (find (fun e => fst e =? p) o) as [e|] eqn:E; [discriminate|].
  pose proof (find_none _ _ E _ I) as N. cbn in N. lia.
Qed.

Lemma remove_open_in : forall p o q fo, In (q, fo) (remove_open p o) <-> In (q, fo) o /\ q <> p.
Proof.
  intros. unfold remove_open. rewrite filter_In. cbn. split; intros (A & B); split; auto; lia.
Qed.

Lemma remove_open_nodup : forall p o, NoDup (map fst o) -> NoDup (map fst (remove_open p o)).
Proof.
  induction o as [|e o IH]; cbn; intros H; [constructor|].
  inversion H as [|x l N D]; subst.
  destruct (negb (fst e =? p)); cbn; [|auto].
  constructor; [|auto]. intros I. apply N.
  apply in_map_iff in I. destruct I as (e' & F & I). apply in_map_iff. exists e'. split; auto.
  unfold remove_open in I. apply filter_In in I. tauto.
Qed.

Lemma nodup_fst_unique : forall (o : list (Z * Z)) p a b,
  NoDup (map fst o) -> In (p, a) o -> In (p, b) o -> a = b.
Proof.
  intros o p a b N Ia Ib. apply in_split in Ia. destruct Ia as (l1 & l2 & ->).
  rewrite map_app in N. apply NoDup_remove_2 in N. apply in_app_or in Ib.
  destruct Ib as [Ib|[[= ->]|Ib]]; [|reflexivity|]; destruct N; apply in_or_app; [left|right];
    exact (in_map fst _ _ Ib).
Qed.

Lemma deltas_recs_ok : forall ks lo n o,
  deltas_ok lo n ks = true -> 0 <= lo ->
  recs_ok (o + lo) (o + n - 1) (map (fun k => mkrec (o + fst k) (snd k)) ks).
Proof.
  induction ks as [|k ks IH]; cbn; intros lo n o H L; [exact I|].
  apply andb_prop in H. destruct H as (H1 & H2). apply andb_prop in H1. destruct H1 as (H0 & H1).
  split; [lia|]. replace (o + fst k + 1) with (o + (fst k + 1)) by lia. apply IH; [auto|lia].
Qed.

Lemma inv_empty : inv empty_log.
Proof.
  constructor; cbn; try (intros; contradiction); try lia. constructor.
Qed.

Lemma spans_data_batch_later : forall t o p tx n ks,
  t_last t < o -> spans t (data_batch o p tx n ks) = false.
Proof. intros. unfold spans, data_batch. cbn. lia. Qed.

(* An operation is made of these changes, in this order: the log end moves; a transaction is
   opened at the old end; a batch is put before the new end; or, all at once, a marker ends the
   open transaction of its producer. *)
Lemma inv_advance : forall s n, inv s -> 0 <= n -> inv (mkls (leo s + n) (rbs s) (opn s) (dne s)).
Proof.
  intros s n [Hbs Hor Hnd Hdr Hdm Hdd Hoa Hcov Hctl] Hn. constructor; cbn; try assumption.
  - eapply rbs_ok_mono; [exact Hbs|lia].
  - intros p fo I. specialize (Hor _ _ I). lia.
  - intros t I. specialize (Hdr _ I). lia.
Qed.

Lemma inv_open : forall s p fo, inv s ->
  find_open p (opn s) = None -> rbs_ok fo (rbs s) -> fo < leo s ->
  inv (mkls (leo s) (rbs s) ((p, fo) :: opn s) (dne s)).
Proof.
  intros s p fo [Hbs Hor Hnd Hdr Hdm Hdd Hoa Hcov Hctl] E Hfo L.
  assert (Hin : forall b, In b (rbs s) -> b_base b < fo).
  { intros b I. destruct (rbs_ok_in _ _ _ Hfo I) as (((? & ?) & _) & ?). lia. }
  constructor; cbn; try assumption.
  - intros q fo' [[= <- <-]|I]; [|eauto]. pose proof (rbs_ok_fence _ _ Hfo). lia.
  - constructor; [|exact Hnd]. intros I. apply in_map_iff in I.
    destruct I as ((q & fo') & [= ->] & I). exact (find_open_none _ _ fo' E I).
  - intros t fo' It [[= _ <-]|J]; [exact (Hin _ (Hdm t It))|eauto].
  - intros b I D. destruct (Hcov b I D) as [?|(fo' & J & Lf)]; [left; assumption|right].
    exists fo'. split; [right; exact J|exact Lf].
  - intros b I C. destruct (Hctl b I C) as (A & B). split; [exact A|].
    intros fo' [[= _ <-]|J]; [exact (Hin b I)|exact (B fo' J)].
Qed.

Lemma inv_push : forall s b, inv s ->
  batch_ok b -> b_last b < leo s -> rbs_ok (b_base b) (rbs s) ->
  (is_data_txn b = true -> exists fo, In (b_pid b, fo) (opn s) /\ fo <= b_base b) ->
  (b_ctl b = true -> find_open (b_pid b) (opn s) = None) ->
  inv (mkls (leo s) (b :: rbs s) (opn s) (dne s)).
Proof.
  intros s b [Hbs Hor Hnd Hdr Hdm Hdd Hoa Hcov Hctl] Bok L Hb Hd Hc.
  constructor; cbn; try assumption.
  - auto.
  - intros t I. right. auto.
  - intros b0 [<-|I] D; [right|]; auto.
  - intros b0 [<-|I] C; [|auto]. split.
    + intros t It _ _. destruct (rbs_ok_in _ _ _ Hb (Hdm t It)) as (_ & Lt). cbn in Lt. lia.
    + intros fo J. destruct (find_open_none _ _ fo (Hc C) J).
Qed.

Lemma marker_ok : forall o p c, 0 <= o -> batch_ok (marker_batch o p c).
Proof.
  intros o p c Ho. split; [cbn; lia|]. split; [cbn; lia|].
  intros _. split; [reflexivity|eexists; reflexivity].
Qed.

Lemma inv_finish : forall s p fo c, inv s -> find_open p (opn s) = Some fo ->
  inv (mkls (leo s + 1) (marker_batch (leo s) p c :: rbs s) (remove_open p (opn s))
            (mktxn p fo (leo s) c :: dne s)).
Proof.
  intros s p fo c [Hbs Hor Hnd Hdr Hdm Hdd Hoa Hcov Hctl] E.
  pose proof (rbs_ok_fence _ _ Hbs) as Hleo.
  pose proof (find_open_some _ _ _ E) as Io. pose proof (Hor _ _ Io) as Rfo.
  constructor; cbn [leo rbs opn dne].
  - split; [apply marker_ok; exact Hleo|]. split; [cbn; lia|exact Hbs].
  - intros q fo' (I & _)%remove_open_in. specialize (Hor _ _ I). lia.
  - apply remove_open_nodup. exact Hnd.
  - intros t [<-|I]; cbn; [lia|]. specialize (Hdr _ I). lia.
  - intros t [<-|I]; cbn; [left; reflexivity|right; auto].
  - intros t1 t2 [<-|I1] [<-|I2] P; cbn in *; auto.
    + right. right. subst p. exact (Hoa _ _ I2 Io).
    + right. left. rewrite <- P in Io. exact (Hoa _ _ I1 Io).
  - intros t fo' [<-|I] (J & N)%remove_open_in; cbn in *; [congruence|eauto].
  - intros b0 [<-|I] D; [discriminate|].
    destruct (Hcov _ I D) as [(t & It & S)|(fo' & J & L)].
    + left. exists t. split; [right; exact It|exact S].
    + destruct (Z.eq_dec (b_pid b0) p) as [Ep|Np].
      * (* b0 belongs to the transaction that ends here *)
        left. exists (mktxn p fo (leo s) c). split; [left; reflexivity|].
        rewrite Ep in J. pose proof (nodup_fst_unique _ _ _ _ Hnd J Io). subst fo'.
        destruct (rbs_ok_in _ _ _ Hbs I) as ((? & ?) & ?). unfold spans. cbn. lia.
      * right. exists fo'. split; [|exact L]. apply remove_open_in. auto.
  - intros b0 [<-|I] C; cbn.
    + split.
      * intros t [<-|It] P F; cbn in *; [lia|]. specialize (Hdr _ It). lia.
      * intros fo' (_ & N)%remove_open_in. congruence.
    + destruct (Hctl _ I C) as (A & B). split.
      * intros t [<-|It] P F; cbn in *; [|auto]. subst p. specialize (B _ Io). lia.
      * intros fo' (J & _)%remove_open_in. auto.
Qed.

Lemma inv_step : forall s o, inv s -> valid_op o = true -> inv (apply_op s o).
Proof.
  intros s o H V. pose proof (i_bs s H) as Hbs. pose proof (rbs_ok_fence _ _ Hbs) as Hleo.
  destruct o as [p tx n kept | p c]; cbn [apply_op].
  - cbn in V. apply andb_prop in V. destruct V as (Vn & Vk).
    pose proof (inv_advance s n H ltac:(lia)) as H1.
    set (opn' := if tx then _ else _).
    (* a transactional batch finds the transaction of p open, or opens it *)
    assert (H2 : inv (mkls (leo s + n) (rbs s) opn' (dne s)) /\
                 (tx = true -> exists fo, In (p, fo) opn' /\ fo <= leo s)).
    { unfold opn'. destruct tx; [|split; [exact H1|discriminate]].
      destruct (find_open p (opn s)) as [fo|] eqn:E.
      - split; [exact H1|]. intros _. exists fo. pose proof (find_open_some _ _ _ E) as I.
        split; [exact I|]. pose proof (i_open_range s H _ _ I). lia.
      - split; [apply (inv_open _ p (leo s) H1 E Hbs); cbn; lia|].
        intros _. exists (leo s). split; [left; reflexivity|lia]. }
    destruct H2 as (H2 & Hp). destruct kept as [ks|]; [|exact H2].
    apply (inv_push _ (data_batch (leo s) p tx n ks) H2); cbn.
    + unfold batch_ok. cbn. split; [lia|]. split; [|discriminate].
      pose proof (deltas_recs_ok ks 0 n (leo s) Vk ltac:(lia)) as R.
      rewrite Z.add_0_r in R. exact R.
    + lia.
    + exact Hbs.
    + unfold is_data_txn. cbn. rewrite andb_true_r. exact Hp.
    + discriminate.
  - destruct (find_open p (opn s)) as [fo|] eqn:E; [exact (inv_finish s p fo c H E)|].
    (* solitary marker *)
    apply (inv_push _ (marker_batch (leo s) p c) (inv_advance s 1 H ltac:(lia))); cbn.
    + apply marker_ok. exact Hleo.
    + lia.
    + exact Hbs.
    + discriminate.
    + intros _. exact E.
Qed.

Lemma inv_fold : forall ops s, inv s -> forallb valid_op ops = true -> inv (fold_left apply_op ops s).
Proof.
  induction ops as [|o ops IH]; cbn; intros s H V; [exact H|].
  apply andb_prop in V. destruct V as (V1 & V2). apply IH; [apply inv_step; auto|exact V2].
Qed.

Theorem build_inv : forall ops, forallb valid_op ops = true -> inv (build ops).
Proof. intros. apply inv_fold; [apply inv_empty|assumption]. Qed.

Definition before (a b : batch) : Prop := b_last a < b_base b.

Lemma rbs_ok_sorted : forall l fence, rbs_ok fence l ->
  StronglySorted before (rev l) /\ Forall (fun b => b_last b < fence) (rev l).
Proof.
  induction l as [|b l IH]; cbn [rev rbs_ok]; intros fence H.
  - split; constructor.
  - destruct H as (B & L & R). destruct (IH _ R) as (S & F). split.
    + apply ss_snoc; [exact S|exact F].
    + apply Forall_app. split.
      * eapply Forall_impl; [|exact F]. cbn. intros a Ha. destruct B as ((? & ?) & _). lia.
      * constructor; [exact L|constructor].
Qed.

Section Facts.
  Variable s : lstate.
  Hypothesis H : inv s.

  Lemma batches_sorted : StronglySorted before (batches s).
  Proof. exact (proj1 (rbs_ok_sorted _ _ (i_bs s H))). Qed.

  Lemma batches_in : forall b, In b (batches s) <-> In b (rbs s).
  Proof. intros. unfold batches. symmetry. apply in_rev. Qed.

  Lemma batch_in_ok : forall b, In b (batches s) -> batch_ok b /\ b_last b < leo s.
  Proof. intros b I. apply batches_in in I. exact (rbs_ok_in _ _ _ (i_bs s H) I). Qed.

  Lemma batch_span : forall b, In b (batches s) -> 0 <= b_base b <= b_last b.
  Proof. intros b I. exact (proj1 (proj1 (batch_in_ok b I))). Qed.

  Lemma batch_recs : forall b r, In b (batches s) -> In r (b_recs b) -> b_base b <= r_off r <= b_last b.
  Proof.
    intros b r Ib Ir. destruct (batch_in_ok b Ib) as ((_ & Rb & _) & _).
    exact (recs_ok_in _ _ _ _ Rb Ir).
  Qed.

  Lemma batches_order : forall a b, In a (batches s) -> In b (batches s) ->
    a = b \/ b_last a < b_base b \/ b_last b < b_base a.
  Proof. intros a b. exact (ss_trichotomy before _ a b batches_sorted). Qed.

  Lemma overlap_same_batch : forall a b o, In a (batches s) -> In b (batches s) ->
    b_base a <= o <= b_last a -> b_base b <= o <= b_last b -> a = b.
  Proof.
    intros a b o Ia Ib Ra Rb. destruct (batches_order a b Ia Ib) as [E|[L|L]]; [exact E|lia|lia].
  Qed.

  Lemma spans_unique : forall t1 t2 b,
    In t1 (dne s) -> In t2 (dne s) -> spans t1 b = true -> spans t2 b = true -> t1 = t2.
  Proof.
    intros t1 t2 b I1 I2 S1 S2. unfold spans in *.
    destruct (i_done_disj s H t1 t2 I1 I2) as [E|[L|L]]; [lia|exact E|lia|lia].
  Qed.

  Lemma txn_key_unique : forall t1 t2,
    In t1 (dne s) -> In t2 (dne s) -> t_pid t1 = t_pid t2 -> t_first t1 = t_first t2 -> t1 = t2.
  Proof.
    intros t1 t2 I1 I2 P F.
    destruct (i_done_disj s H t1 t2 I1 I2 P) as [E|[L|L]]; [exact E| |].
    - pose proof (i_done_range s H _ I1). lia.
    - pose proof (i_done_range s H _ I2). lia.
  Qed.

  Lemma lso_le_open : forall p fo, In (p, fo) (opn s) -> lso s <= fo.
  Proof.
    unfold lso. intros p fo I. apply (in_map snd) in I. cbn in I.
    revert I. generalize (map snd (opn s)). induction l as [|x l IH]; cbn; [contradiction|].
    intros [->|I]; [lia|]. specialize (IH I). lia.
  Qed.

  Lemma lso_le_leo : lso s <= leo s.
  Proof. unfold lso. induction (map snd (opn s)); cbn; lia. Qed.

  Lemma below_lso_not_open : forall b, In b (batches s) -> b_last b < lso s -> in_open s b = false.
  Proof.
    intros b I L. unfold in_open. destruct (is_data_txn b); [cbn|reflexivity].
    apply not_true_is_false. intros E. apply existsb_exists in E.
    destruct E as ((p & fo) & J & C). cbn in C.
    assert (p = b_pid b) by lia. subst p. pose proof (lso_le_open _ _ J).
    pose proof (batch_span b I). lia.
  Qed.

  (* the one finished transaction that contains b decides every question about it *)
  Lemma spanned_by : forall t b (c : txn -> bool), In t (dne s) -> spans t b = true ->
    existsb (fun t' => spans t' b && c t') (dne s) = c t.
  Proof.
    intros t b c It S. destruct (c t) eqn:C.
    - apply existsb_exists. exists t. split; [exact It|]. rewrite S, C. reflexivity.
    - apply not_true_is_false. intros E. apply existsb_exists in E.
      destruct E as (t' & It' & C'). apply andb_prop in C'. destruct C' as (S' & N').
      rewrite (spans_unique t' t b It' It S' S) in N'. congruence.
  Qed.

  Lemma txn_trichotomy : forall b, In b (batches s) -> is_data_txn b = true ->
    (committed s b = true /\ aborted s b = false /\ in_open s b = false) \/
    (committed s b = false /\ aborted s b = true /\ in_open s b = false) \/
    (committed s b = false /\ aborted s b = false /\ in_open s b = true).
  Proof.
    intros b I D. unfold committed, aborted, in_open. rewrite D. cbn [andb].
    assert (NoBoth : forall t fo, In t (dne s) -> spans t b = true ->
                     In (b_pid b, fo) (opn s) -> fo <= b_base b -> False).
    { intros t fo It S J L. unfold spans in S.
      assert (P : t_pid t = b_pid b) by lia. rewrite <- P in J.
      pose proof (i_open_after s H _ _ It J). pose proof (i_done_range s H _ It). lia. }
    destruct (i_cover s H b (proj1 (batches_in b) I) D) as [(t & It & S)|(fo & J & L)].
    - assert (Op : existsb (fun e => (fst e =? b_pid b) && (snd e <=? b_base b)) (opn s) = false).
      { apply not_true_is_false. intros E. apply existsb_exists in E.
        destruct E as ((p & fo) & J & C). cbn in C. assert (p = b_pid b) by lia. subst p.
        apply (NoBoth t fo It S J). lia. }
      rewrite Op, (spanned_by t b t_commit It S), (spanned_by t b (fun t => negb (t_commit t)) It S).
      destruct (t_commit t); [left|right; left]; repeat split.
    - right. right.
      assert (No : forall c, existsb (fun t => spans t b && c t) (dne s) = false).
      { intros c. apply not_true_is_false. intros E. apply existsb_exists in E.
        destruct E as (t & It & C). apply andb_prop in C. destruct C as (S & _).
        exact (NoBoth t fo It S J L). }
      rewrite (No (fun t => t_commit t)), (No (fun t => negb (t_commit t))).
      split; [reflexivity|split; [reflexivity|]].
      apply existsb_exists. exists (b_pid b, fo). split; [exact J|]. cbn. lia.
  Qed.

  Lemma below_lso_committed : forall b, In b (batches s) -> b_last b < lso s ->
    is_data_txn b = true -> committed s b = negb (aborted s b).
  Proof.
    intros b I L D. pose proof (below_lso_not_open b I L) as O.
    destruct (txn_trichotomy b I D) as [(A & B & C)|[(A & B & C)|(A & B & C)]];
      rewrite ?A, ?B in *; try reflexivity. congruence.
  Qed.
End Facts.

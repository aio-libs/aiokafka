(* C19_proof.v — the commit loop and the time accounting of model/Shutdown.v *)
From Coq Require Import List Bool Arith Lia.
From Verif Require Import Shutdown.
Import ListNotations.

(* not closing: the loop ends exactly at the first non-retriable outcome *)
Theorem commit_loop_retries_until_non_retriable : forall pre a rest,
  Forall (fun x => x = ARetriable) pre -> a <> ARetriable ->
  fst (commit_loop false (pre ++ a :: rest)) = S (length pre).
Proof.
  induction pre as [|x pre IH]; intros a rest Hp Ha; cbn [app].
  - destruct a; cbn; congruence.
  - inversion Hp as [|? ? -> Hpre]; subst. cbn [commit_loop]. specialize (IH a rest Hpre Ha).
    destruct (commit_loop false (pre ++ a :: rest)) as [n r]. cbn in *. lia.
Qed.

Lemma fold_add_acc l a : fold_left Nat.add l a = a + fold_left Nat.add l 0.
Proof. revert a. induction l as [|x l IH]; intros a; cbn; [lia|]. rewrite IH, (IH x). lia. Qed.

Lemma attempts_time_closing_le T l : forallb (fun ad => snd ad <=? T) l = true -> attempts_time true l <= T.
Proof.
  unfold attempts_time. destruct l as [|[a d] rest]; cbn [map fst commit_loop]; [cbn; lia|].
  intros H. cbn [forallb snd] in H. apply andb_true_iff in H. destruct H as (Hd & _). apply Nat.leb_le in Hd.
  destruct a; cbn; lia.
Qed.

Lemma opt_le_spec o b : opt_le o b = true -> match o with Some d => d | None => 0 end <= b.
Proof. destruct o as [d|]; cbn [opt_le]; [apply Nat.leb_le|lia]. Qed.

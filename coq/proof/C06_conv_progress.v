(* Progress: in a state that satisfies the invariant and is not converged, a real (non no-op) quiet step is enabled,
   at the latest after one no-op (a silent reply still on the wire is consumed first). *)
From Coq Require Import ZArith List Bool Arith Lia.
From Verif Require Import DispatchActs HeartbeatDispatch JoinRetryDispatch JoinDispatch SyncDispatch CommitDispatch
  C06_Converge C06_conv_lib C06_conv_refl C06_conv_abs C06_conv_checks C06_conv_step C06_conv_cases C06_conv_coord C06_conv_epoch C06_conv_final.
Import ListNotations.
Local Open Scope nat_scope.

Lemma le_max_list : forall l x, In x l -> x <= fold_right Nat.max 0 l.
Proof. induction l as [|a r IH]; intros x H; [inversion H|]. cbn [fold_right]. destruct H as [->|H]; [lia | specialize (IH x H); lia]. Qed.
Lemma fresh_exists : forall s, fresh s (S (max_id s)) = true.
Proof.
  intros [c ms]. unfold fresh, max_id. cbn [s_c s_ms]. set (M := fold_right Nat.max 0 (all_ids (mkS c ms))).
  assert (H : forall x, In x (all_ids (mkS c ms)) -> x <> S M) by (intros x Hx E; pose proof (le_max_list _ x Hx); fold M in H; lia).
  unfold all_ids in H. cbn [s_c s_ms] in H.
  assert (A : memb (S M) (ids (c_ents c)) = false).
  { apply memb_false_In. intros Hin. apply (H (S M)); [apply in_or_app; left; exact Hin | reflexivity]. }
  assert (B : memb (S M) (c_pend c) = false).
  { apply memb_false_In. intros Hin. apply (H (S M)); [apply in_or_app; right; apply in_or_app; left; exact Hin | reflexivity]. }
  rewrite A, B. cbn [Nat.eqb negb andb]. apply forallb_forall. intros m Hm.
  assert (Hi : m_id m <> S M).
  { apply H. apply in_or_app; right. apply in_or_app; right. apply in_flat_map. exists m. split; [exact Hm | left; reflexivity]. }
  assert (Hf : m_focus m <> S M).
  { apply H. apply in_or_app; right. apply in_or_app; right. apply in_flat_map. exists m. split; [exact Hm | right; left; reflexivity]. }
  apply Nat.eqb_neq in Hi, Hf. rewrite Hi, Hf. reflexivity.
Qed.

(* from a move of the view to a step of the model; progress needs one enabled step, so for a JoinGroup any [v4] and any
   fresh id will do: [S (max_id s)] is fresh ([fresh_exists]) *)
Definition label_of (i : nat) (s : state) (mv : move) : label :=
  match mv with
  | MFind => LFind i | MSendJoin => LSendJoin i true (S (max_id s)) | MRecv => LRecv i | MSendSync => LSendSync i
  | MHbSend => LHbSend i | MHbRecv => LHbRecv i | MCmSend => LCmSend i | MCmRecv => LCmRecv i
  end.

Lemma not_none_some : forall {A} (o : option A), negb (is_none o) = true -> exists x, o = Some x.
Proof. intros A o H. destruct o as [x|]; [exists x; reflexivity | discriminate]. Qed.
Lemma move_step : forall c ms i m mv, getm i ms = Some m -> enabled_a (absm c m) mv = true ->
  exists s', step (mkS c ms) (label_of i (mkS c ms) mv) = Some s'
             /\ noop_b (mkS c ms) (label_of i (mkS c ms) mv) = negb (real_a (absm c m) mv).
Proof.
  intros c ms i m mv G E. pose proof E as E0. unfold enabled_a in E0. apply andb_true_iff in E0. destruct E0 as [L E0].
  (* [a_live (absm c m)] is [m_live m] by conversion only: rewriting needs the latter (likewise [Hc] / [Hc'] below) *)
  assert (La : m_live m = true) by exact L.
  destruct mv; cbn [label_of step noop_b real_a s_c s_ms]; unfold with_m; cbn [s_c s_ms]; rewrite G.
  - rewrite (guard_find c m), E. eexists. split; reflexivity.
  - rewrite (guard_sendjoin c m), E, (fresh_exists (mkS c ms)), orb_true_r. cbn [andb].
    destruct (ck_stale (m_ck m)); [eexists; split; reflexivity|]. destruct (cjoin c (m_id m) true (S (max_id (mkS c ms)))) as [[c' o] evs].
    eexists. split; reflexivity.
  - unfold absm, ib_of in E0. pcbn_in E0. rewrite La. destruct (m_ph m); try discriminate; destruct (m_inbox m) as [[? ?|?]|]; try discriminate;
      eexists; split; reflexivity.
  - rewrite (guard_sendsync c m), E. destruct (ck_stale (m_ck m)); [eexists; split; reflexivity|].
    destruct (csync c (m_id m) (m_gen m)) as [[c' o] evs]. eexists. split; reflexivity.
  - rewrite (guard_hbsend c m), E. eexists. split; [reflexivity|]. rewrite (hb_code_abs c m), negb_involutive. reflexivity.
  - destruct (not_none_some _ E0) as [code Hc]. assert (Hc' : m_hbin m = Some code) by exact Hc. rewrite La, Hc'.
    eexists. split; [reflexivity|]. rewrite Hc, negb_involutive. reflexivity.
  - rewrite (guard_cmsend c m), E. eexists. split; [reflexivity|]. rewrite (cm_code_abs c m), negb_involutive. reflexivity.
  - destruct (not_none_some _ E0) as [code Hc]. assert (Hc' : m_cmin m = Some code) by exact Hc. rewrite La, Hc'.
    eexists. split; [reflexivity|]. rewrite Hc, negb_involutive. reflexivity.
Qed.

Definition progress_at (s : state) : Prop :=
  exists l s', step s l = Some s' /\
    (noop_b s l = false \/ (exists l2 s2, step s' l2 = Some s2 /\ noop_b s' l2 = false)).

Lemma has_real_step : forall c ms i m, getm i ms = Some m -> has_real (absm c m) = true ->
  exists l s', step (mkS c ms) l = Some s' /\ noop_b (mkS c ms) l = false.
Proof.
  intros c ms i m G H. unfold has_real in H. apply existsb_exists in H. destruct H as [mv [_ Hm]].
  apply andb_true_iff in Hm. destruct Hm as [He Hr]. destruct (move_step c ms i m mv G He) as [s' [Hs Hn]].
  exists (label_of i (mkS c ms) mv), s'. split; [exact Hs | rewrite Hn, Hr; reflexivity].
Qed.

Lemma unblocked_progress : forall c ms i m, inv_facts c ms -> getm i ms = Some m -> m_live m = true ->
  blocked_a (absm c m) = false -> progress_at (mkS c ms).
Proof.
  intros c ms i m Hinv G L Hb. destruct (getm_In _ _ _ G) as [Hin _]. pose proof (iv_wfc _ _ Hinv) as Hwc. pose proof (wf_c_zfacts c Hwc) as Zc.
  pose proof (member_can_move c m (wf_cw_of_wf c Hwc) L (iv_wfm _ _ Hinv m Hin) (iv_coh _ _ Hinv m Hin) Hb) as H. unfold can_move in H. apply orb_true_iff in H. destruct H as [H|H].
  - destruct (has_real_step c ms i m G H) as (l & s' & Hs & Hn). exists l, s'. split; [exact Hs | left; exact Hn].
  - (* a silent reply first: the member after it, [F m], has the view [after_noop] and a real move *)
    assert (Hnoop : forall m0 F, enabled_a (absm c m) m0 = true -> (forall m1, m_name (F m1) = m_name m1) ->
              step (mkS c ms) (label_of i (mkS c ms) m0) = Some (mkS c (updm i F ms)) ->
              absm c (F m) = after_noop (absm c m) m0 -> has_real (after_noop (absm c m) m0) = true -> progress_at (mkS c ms)).
    { intros m0 F He Hn Hs EA H2. exists (label_of i (mkS c ms) m0), (mkS c (updm i F ms)). split; [exact Hs|]. right.
      rewrite <- EA in H2. destruct (has_real_step c (updm i F ms) i (F m) (getm_updm_same i F ms m Hn G) H2) as (l2 & s2 & Hs2 & Hn2).
      exists l2, s2. split; assumption. }
    cbn [existsb] in H. rewrite orb_false_r in H. apply orb_true_iff in H.
    destruct H as [H|H]; apply andb_true_iff in H; destruct H as [H H2]; apply andb_true_iff in H; destruct H as [He _];
      pose proof He as He'; unfold enabled_a in He'; apply andb_true_iff in He'; destruct He' as [_ He'];
      destruct (not_none_some _ He') as [code Hc].
    + apply (Hnoop MHbRecv (recv_hb code) He (fun m1 => proj2 (proj2 (proj2 (recv_hb_fields code m1))))); [| |exact H2].
      * assert (Hc' : m_hbin m = Some code) by exact Hc. cbn [label_of step s_c s_ms]. rewrite G, L, Hc'. reflexivity.
      * cbn [after_noop]. rewrite Hc. apply absm_recv_hb. exact Zc.
    + apply (Hnoop MCmRecv (recv_cm code) He (fun m1 => proj2 (proj2 (proj2 (recv_cm_fields code m1))))); [| |exact H2].
      * assert (Hc' : m_cmin m = Some code) by exact Hc. cbn [label_of step s_c s_ms]. rewrite G, L, Hc'. reflexivity.
      * cbn [after_noop]. rewrite Hc. apply absm_recv_cm. exact Zc.
Qed.

Lemma find_ent_in : forall es e, NoDup (ids es) -> In e es -> find_ent (e_id e) es = Some e.
Proof.
  induction es as [|a r IH]; intros e ND Hin; [inversion Hin|]. cbn [ids map] in ND. inversion ND as [|? ? Hnot ND']; subst.
  unfold find_ent. cbn [find]. destruct Hin as [->|Hin]; [rewrite Nat.eqb_refl; reflexivity|].
  destruct (Nat.eqb_spec (e_id a) (e_id e)) as [E|E]; [|apply IH; assumption].
  exfalso. apply Hnot. rewrite E. apply in_map. exact Hin.
Qed.

Lemma expire_enabled : forall c ms e, wf_c c = true -> In e (c_ents c) -> orphan ms e = true -> e_jp e = false -> e_sp e = false ->
  exists x s', step (mkS c ms) (LExpire x false) = Some s'.
Proof.
  intros c ms e Hc Hin Ho Hj Hs. exists (e_id e). cbn [step s_c s_ms].
  rewrite (find_ent_in (c_ents c) e (proj1 (nodupb_NoDup _) (wc_nodup c (wf_c_parts c Hc))) Hin), Ho, Hj, Hs. cbn [negb andb orb].
  destruct (cexpire c (e_id e) false) as [c' evs]. eexists. reflexivity.
Qed.

Lemma blocked_cases : forall a, blocked_a a = true -> a_live a = true ->
  a_waiting_join a = true \/ a_waiting_sync a = true \/ (settled_a a = true /\ (a_st a = CStable \/ a_st a = CEmpty)).
Proof.
  intros a H L. unfold blocked_a in H. rewrite L in H. cbn [negb orb] in H.
  apply orb_true_iff in H. destruct H as [H|H]; [apply orb_true_iff in H; destruct H as [H|H]; auto|].
  apply andb_true_iff in H. destruct H as [H1 H2]. right. right. split; [exact H1|].
  apply orb_true_iff in H2. destruct H2 as [E|E]; destruct (a_st a); try discriminate; auto.
Qed.

(* a parked member: the flag it waits on is set, and it is bound to no other id *)
Lemma parked_flag : forall c m, wf_m c m = true -> coh c m = true -> m_live m = true ->
  (a_waiting_join (absm c m) = true -> ent_jp c (m_focus m) = true /\ (forall x, x <> 0 -> bound m x = true -> x = m_focus m))
  /\ (a_waiting_sync (absm c m) = true -> ent_sp c (m_id m) = true /\ (forall x, x <> 0 -> bound m x = true -> x = m_id m)).
Proof.
  intros c m W C L. destruct (waiting_abs c m) as [Ej Es]. rewrite Ej, Es. unfold waiting_join, waiting_sync.
  unfold coh, coh_a, wf_m, wf_a, a_waiting_join, a_waiting_sync, absm, focus_of in C, W. pcbn_in C. pcbn_in W. unfold ib_of in C, W.
  split; intros Wt; apply andb_true_iff in Wt; destruct Wt as [P I]; apply ph_of_eqb in P; apply none_of_is_none in I;
    rewrite L, P, I in C, W; cbn [negb orb ph_eqb andb] in C, W.
  - split; [destruct (ent_jp c (m_focus m)); [reflexivity | discriminate]|].
    intros x Hx B. unfold bound in B. rewrite L, P in B. cbn [ph_eqb andb] in B. apply orb_true_iff in B.
    destruct B as [B|B]; apply Nat.eqb_eq in B; [|congruence].
    destruct (Nat.eqb_spec (m_focus m) (m_id m)) as [E|E]; [congruence|]. destruct (Nat.eqb_spec (m_id m) 0) as [E2|E2]; [congruence|].
    exfalso. cbn [orb] in W. rewrite !andb_false_r in W. discriminate.
  - split; [destruct (ent_sp c (m_id m)); [reflexivity | cbn [andb] in C; discriminate]|].
    intros x Hx B. rewrite (bound_nj m x) in B by (rewrite P; discriminate). rewrite L in B. apply Nat.eqb_eq in B. congruence.
Qed.

(* a blocked member is parked on a set flag, bound to that id only, or settled in Stable / Empty: during a rebalance it
   is bound to no entry with both flags clear *)
Lemma blocked_not_bound : forall c ms m e, inv_facts c ms -> In m ms -> m_live m = true -> blocked_a (absm c m) = true ->
  In e (c_ents c) -> e_jp e = false -> e_sp e = false -> (c_st c = CPreparing \/ c_st c = CCompleting) ->
  bound m (e_id e) = false.
Proof.
  intros c ms m e Hinv Hin L Hb He Hj Hs Hst. destruct (bound m (e_id e)) eqn:B; [|reflexivity]. exfalso.
  pose proof (iv_wfc _ _ Hinv) as Hwc. pose proof (wf_c_parts c Hwc) as W.
  pose proof (find_ent_in (c_ents c) e (proj1 (nodupb_NoDup _) (wc_nodup c W)) He) as Hf.
  assert (Hx : e_id e <> 0).
  { intros E. assert (memb 0 (ids (c_ents c)) = true); [|rewrite (wc_0e c W) in H; discriminate]. apply memb_In. rewrite <- E. apply in_map. exact He. }
  destruct (parked_flag c m (iv_wfm _ _ Hinv m Hin) (iv_coh _ _ Hinv m Hin) L) as [Pj Ps].
  destruct (blocked_cases _ Hb L) as [Wj|[Ws|[_ Hs2]]].
  - destruct (Pj Wj) as [Cj Hid]. rewrite <- (Hid _ Hx B) in Cj. unfold ent_jp in Cj. rewrite Hf, Hj in Cj. discriminate.
  - destruct (Ps Ws) as [Cs Hid]. rewrite <- (Hid _ Hx B) in Cs. unfold ent_sp in Cs. rewrite Hf, Hs in Cs. discriminate.
  - assert (Est : a_st (absm c m) = c_st c) by reflexivity. rewrite Est in Hs2. destruct Hst as [E|E], Hs2 as [E2|E2]; congruence.
Qed.

Lemma forallb_false_ex : forall {A} (p : A -> bool) l, forallb p l = false -> exists x, In x l /\ p x = false.
Proof.
  intros A p l. induction l as [|a r IH]; intros H; [discriminate|]. cbn [forallb] in H. destruct (p a) eqn:E.
  - destruct (IH H) as [x [Hx Hp]]. exists x. split; [right; exact Hx | exact Hp].
  - exists a. split; [left; reflexivity | exact E].
Qed.
Lemma getm_of_in : forall ms m, NoDup (map m_name ms) -> In m ms -> getm (m_name m) ms = Some m.
Proof.
  induction ms as [|a r IH]; intros m ND Hin; [inversion Hin|]. cbn [map] in ND. inversion ND as [|? ? Hnot ND']; subst.
  unfold getm. cbn [find]. destruct Hin as [->|Hin]; [rewrite Nat.eqb_refl; reflexivity|].
  destruct (Nat.eqb_spec (m_name a) (m_name m)) as [E|E]; [|apply IH; assumption].
  exfalso. apply Hnot. rewrite E. apply in_map. exact Hin.
Qed.
(* everybody blocked: an orphan id can be expired *)
Lemma stuck_expire : forall c ms, inv_facts c ms -> forallb (fun m => blocked_a (absm c m)) ms = true ->
  converged_b (mkS c ms) = false -> exists x s', step (mkS c ms) (LExpire x false) = Some s'.
Proof.
  intros c ms Hinv Hab Hnc. pose proof (iv_wfc _ _ Hinv) as Hwc. pose proof (wf_c_parts c Hwc) as W.
  rewrite forallb_forall in Hab.
  assert (Horph : forall e, In e (c_ents c) -> e_jp e = false -> e_sp e = false -> (c_st c = CPreparing \/ c_st c = CCompleting) -> orphan ms e = true).
  { intros e He Hj Hs Hst. unfold orphan. apply negb_true_iff. destruct (existsb (fun m => bound m (e_id e)) ms) eqn:Ex; [|reflexivity]. exfalso.
    apply existsb_exists in Ex. destruct Ex as [m [Hin B]].
    assert (L : m_live m = true) by (unfold bound in B; apply andb_true_iff in B; apply B).
    rewrite (blocked_not_bound c ms m e Hinv Hin L (Hab m Hin) He Hj Hs Hst) in B. discriminate. }
  destruct (c_st c) eqn:Hst.
  - (* Empty: no entries, nobody alive can be settled: converged *)
    exfalso. pose proof (wc_empty c W) as He. rewrite Hst in He. cbn in He. assert (Ee : c_ents c = []) by (destruct (c_ents c); [reflexivity | discriminate]).
    unfold converged_b in Hnc. cbn [s_c s_ms] in Hnc. rewrite Hst, Ee in Hnc. cbn [cstate_eqb orb forallb andb] in Hnc. rewrite andb_true_r in Hnc.
    apply forallb_false_ex in Hnc. destruct Hnc as [m [Hin Hs]]. destruct (m_live m) eqn:L.
    + destruct (parked_flag c m (iv_wfm _ _ Hinv m Hin) (iv_coh _ _ Hinv m Hin) L) as [Pj Ps].
      destruct (blocked_cases _ (Hab m Hin) L) as [Wj|[Ws|[S _]]].
      * destruct (Pj Wj) as [Cj _]. unfold ent_jp in Cj. rewrite Ee in Cj. discriminate.
      * destruct (Ps Ws) as [Cs _]. unfold ent_sp in Cs. rewrite Ee in Cs. discriminate.
      * unfold settled in Hs. congruence.
    + destruct (dead_trivial c m L) as (_ & _ & _ & _ & S). congruence.
  - (* Preparing: an entry that has not joined is an orphan *)
    pose proof (wc_notall c W) as Hn. rewrite Hst in Hn. cbn [cstate_eqb negb orb] in Hn. apply negb_true_iff in Hn.
    destruct (forallb_false_ex e_jp _ Hn) as [e [He Hj]].
    pose proof (wc_sp c W) as Hsp. rewrite Hst in Hsp. cbn [cstate_eqb orb] in Hsp. rewrite forallb_forall in Hsp.
    assert (Hs : e_sp e = false) by (apply negb_true_iff; apply Hsp; exact He).
    exact (expire_enabled c ms e Hwc He (Horph e He Hj Hs (or_introl eq_refl)) Hj Hs).
  - (* Completing: the leader's entry is an orphan *)
    pose proof (wc_leader c W) as Hl. rewrite Hst in Hl. apply andb_true_iff in Hl. destruct Hl as [Hl _]. apply memb_In in Hl.
    unfold ids in Hl. apply in_map_iff in Hl. destruct Hl as [e [Ee He]].
    pose proof (wc_jp c W) as Hjp. rewrite Hst in Hjp. cbn [cstate_eqb orb] in Hjp. rewrite forallb_forall in Hjp.
    assert (Hj : e_jp e = false) by (apply negb_true_iff; apply Hjp; exact He).
    assert (Hs : e_sp e = false).
    { pose proof (wc_lsp c W) as H. unfold ent_sp in H. rewrite <- Ee in H.
      rewrite (find_ent_in (c_ents c) e (proj1 (nodupb_NoDup _) (wc_nodup c W)) He) in H. exact H. }
    exact (expire_enabled c ms e Hwc He (Horph e He Hj Hs (or_intror eq_refl)) Hj Hs).
  - (* Stable: everybody alive is settled, so some entry is an orphan *)
    pose proof (wc_jp c W) as Hjp. rewrite Hst in Hjp. cbn [cstate_eqb orb] in Hjp.
    pose proof (wc_sp c W) as Hsp. rewrite Hst in Hsp. cbn [cstate_eqb orb] in Hsp.
    assert (Hset : forallb (settled c) ms = true).
    { apply forallb_forall. intros m Hin. destruct (m_live m) eqn:L; [|apply (dead_trivial c m L)].
      destruct (parked_flag c m (iv_wfm _ _ Hinv m Hin) (iv_coh _ _ Hinv m Hin) L) as [Pj Ps].
      destruct (blocked_cases _ (Hab m Hin) L) as [Wj|[Ws|[S _]]]; [| |exact S]; exfalso.
      - destruct (Pj Wj) as [Cj _]. unfold ent_jp in Cj. rewrite (find_ent_flag e_jp _ _ Hjp) in Cj. discriminate.
      - destruct (Ps Ws) as [Cs _]. unfold ent_sp in Cs. rewrite (find_ent_flag e_sp _ _ Hsp) in Cs. discriminate. }
    rewrite forallb_forall in Hjp, Hsp.
    unfold converged_b in Hnc. cbn [s_c s_ms] in Hnc. rewrite Hst, Hset in Hnc. cbn [cstate_eqb orb andb] in Hnc.
    apply forallb_false_ex in Hnc. destruct Hnc as [e [He Hb]].
    assert (Hj : e_jp e = false) by (apply negb_true_iff; apply Hjp; exact He).
    assert (Hs : e_sp e = false) by (apply negb_true_iff; apply Hsp; exact He).
    rewrite Hj, Hs in Hb. cbn [negb andb] in Hb. rewrite !andb_true_r in Hb. apply negb_false_iff in Hb.
    exact (expire_enabled c ms e Hwc He Hb Hj Hs).
Qed.

Theorem progress_all : forall s, inv_b s = true -> converged_b s = false -> progress_at s.
Proof.
  intros [c ms] Hi Hc. pose proof (inv_unpack c ms Hi) as Hinv.
  destruct (forallb (fun m => blocked_a (absm c m)) ms) eqn:Ab.
  - destruct (stuck_expire c ms Hinv Ab Hc) as [x [s' E]]. exists (LExpire x false), s'. split; [exact E | left; reflexivity].
  - destruct (forallb_false_ex _ _ Ab) as [m [Hin Hb]].
    assert (L : m_live m = true).
    { unfold blocked_a in Hb. destruct (a_live (absm c m)) eqn:E; [exact E | discriminate]. }
    apply (unblocked_progress c ms (m_name m) m Hinv (getm_of_in ms m (iv_names _ _ Hinv) Hin) L Hb).
Qed.

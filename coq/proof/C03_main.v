(* C03_main.v — one step of the fetcher model by what it does, the buffer invariant, exactness of the
   API-level specification automaton, and refinement of the fetcher model to it. *)
From Coq Require Import ZArith List Bool Lia ZifyBool.
From Verif Require Import C03_Fetcher C03_lists.
Import ListNotations.
Open Scope Z_scope.

Lemma opt_eqb_true a b : opt_eqb a b = true <-> a = Some b.
Proof. destruct a as [x|]; simpl; split; intros H; try discriminate; [f_equal; lia|inversion H; lia]. Qed.

Lemma res_eqb_true a b : res_eqb a b = true <-> a = b.
Proof.
  destruct a, b; simpl; split; intros H; try discriminate; try reflexivity;
    [f_equal; lia|inversion H; lia].
Qed.

Lemma last_or_cons d x l : last_or d (x :: l) = last_or x l.
Proof. reflexivity. Qed.

Lemma last_or_indep l : forall d d', l <> [] -> last_or d l = last_or d' l.
Proof. destruct l; intros; [congruence|reflexivity]. Qed.

Lemma last_or_in d l : l <> [] -> In (last_or d l) l.
Proof.
  destruct l as [|x l]; [congruence|]. intros _. cbn. revert x.
  induction l as [|y l IH]; intros x; cbn; [left; reflexivity|right; apply IH].
Qed.

(* where the position is after the records [out] were yielded starting from [cur] *)
Definition adv (cur : Z) (out : list Z) : Z :=
  match out with [] => cur | _ => last_or cur out + 1 end.

Lemma adv_cons cur r out : adv cur (r :: out) = adv (r + 1) out.
Proof. destruct out; reflexivity. Qed.

Lemma adv_nonempty cur out : out <> [] -> adv cur out = last_or cur out + 1.
Proof. destruct out; [congruence|reflexivity]. Qed.

Lemma stale_false s cur : stale s cur = false -> paused s = false /\ pos s = Some cur.
Proof.
  unfold stale. intros H. apply orb_false_iff in H. destruct H as (H1 & H2).
  split; [exact H1|]. apply opt_eqb_true. destruct (opt_eqb (pos s) cur); [reflexivity|discriminate].
Qed.

(* a hand-out event carries what getone / getall returned *)
Lemma step_hand_one none L s res s' : step none L s (HandOne res) = Some s' -> hand_one s = Some (res, s').
Proof.
  cbn [step]. destruct (hand_one s) as [[r s1]|]; [|discriminate].
  destruct (res_eqb r res) eqn:E; [|discriminate]. apply res_eqb_true in E. intros [= <-]. rewrite E. reflexivity.
Qed.

Lemma step_hand_many none L s mx res s' :
  step none L s (HandMany mx res) = Some s' -> hand_many s mx = Some (res, s').
Proof.
  cbn [step]. destruct (hand_many s mx) as [[r s1]|]; [|discriminate].
  destruct (zlist_eqb r res) eqn:E; [|discriminate]. apply zlist_eqb_eq in E. intros [= <-]. rewrite E. reflexivity.
Qed.

(* the records a hand-out event reports *)
Definition handed (e : ev) : list Z :=
  match e with HandOne (Some r) => [r] | HandMany _ res => res | _ => [] end.

(* [buf_kept b b']: the new buffer b' is the old one b, or holds no records (dropped, or replaced by an error) *)
Definition buf_kept (b b' : bufst) : Prop := forall rem cur fin, b' = Recs rem cur fin -> b' = b.

(* [fstep L s e s' a], the view of [step] ([step_view] below): e takes s to s', and the application sees a.
   Vframe: fetch bookkeeping, replies that are ignored or only buffer an error, errors raised, stale data dropped by
   a hand-out.  Vlose: the same, and the position is given up (an out-of-range reply under a reset policy, SeekReset). *)
Inductive fstep (L : list batch) (s : st) : ev -> st -> list sev -> Prop :=
| Vframe e b fl : handed e = [] -> buf_kept (buf s) b ->
    fstep L s e (mkSt (pos s) b (paused s) fl (start s) (seg s) (hist s)) []
| Vfill o code bs fl : valid_resp L o bs = true -> bs <> [] ->
    fstep L s (FetchResp o code bs)
      (mkSt (pos s) (Recs (fst (unpack o bs)) o (snd (unpack o bs))) (paused s) fl (start s) (seg s) (hist s)) []
| Vlose e b fl : handed e = [] -> buf_kept (buf s) b ->
    fstep L s e (mkSt None b (paused s) fl None [] (close s)) [SLose]
| Vhand e out rest cur fin : buf s = Recs (out ++ rest) cur fin -> stale s cur = false -> out <> [] ->
    handed e = out ->
    fstep L s e (mkSt (Some (adv cur out)) (Recs rest (adv cur out) fin) (paused s) (inflight s) (start s)
                      (seg s ++ out) (hist s)) (map SDeliver out)
| Vdrain e rem cur fin : buf s = Recs rem cur fin -> stale s cur = false -> handed e = rem ->
    fstep L s e (mkSt (Some fin) NoBuf (paused s) (inflight s) (start s) (seg s ++ rem) (hist s))
          (map SDeliver rem ++ [SSkip fin])
| Vseek o :
    fstep L s (Seek o) (mkSt (Some o) NoBuf (paused s) (inflight s) (Some o) [] (close s)) [SSeek o]
| Vreset o : pos s = None ->
    fstep L s (ResetTo o) (mkSt (Some o) (buf s) (paused s) (inflight s) (Some o) [] (hist s)) [SReset o]
| Vpause :
    fstep L s Pause (mkSt (pos s) (buf s) true (inflight s) (start s) (seg s) (hist s)) [SPause]
| Vresume :
    fstep L s Resume (mkSt (pos s) (buf s) false (inflight s) (start s) (seg s) (hist s)) [SResume]
| Vposition p : pos s = Some p -> fstep L s (Position p) s [SPosition p].

Lemma step_view none L s e s' : step none L s e = Some s' -> fstep L s e s' (abs_ev none s e).
Proof.
  destruct e; cbn [step abs_ev].
  - destruct (buf s) eqn:EB; try discriminate.
    destruct (opt_eqb (pos s) o && negb (paused s)); [|discriminate].
    intros [= <-]. now apply Vframe.
  - destruct (remove1 o (inflight s)) as [fl|]; [|discriminate].
    destruct (opt_eqb (pos s) o); cbn [negb andb]; [|intros [= <-]; now apply Vframe].
    destruct (has_buf (buf s)) eqn:HB; cbn [negb andb]; [intros [= <-]; now apply Vframe|].
    assert (EB : buf s = NoBuf) by (destruct (buf s); [reflexivity|discriminate..]). rewrite EB.
    destruct (code =? 0); cbn [negb andb].
    { destruct bs as [|b bs]; [intros [= <-]; now apply Vframe|].
      destruct (valid_resp L o (b :: bs)) eqn:V; [|discriminate]. intros [= <-].
      apply (Vfill L s o code (b :: bs) fl V). discriminate. }
    destruct (code =? OFFSET_OUT_OF_RANGE); cbn [negb andb].
    { destruct none; intros [= <-]; [now apply Vframe|]. rewrite <- EB. now apply Vlose. }
    destruct (code =? TOPIC_AUTHORIZATION_FAILED); intros [= <-]; now apply Vframe.
  - destruct (remove1 o (inflight s)); [|discriminate]. intros [= <-]. now apply Vframe.
  - intros H. apply (step_hand_one none L) in H. unfold hand_one in H.
    destruct (buf s) as [|rem cur fin|c] eqn:EB; try discriminate H.
    destruct (stale s cur) eqn:ES; [|destruct rem as [|r rem]]; injection H as <- <-.
    + now apply Vframe.
    + rewrite <- (app_nil_r (seg s)). now apply (Vdrain L s _ [] cur fin).
    + now apply (Vhand L s _ [r] rem cur fin).
  - intros H. apply (step_hand_many none L) in H. unfold hand_many in H.
    destruct (buf s) as [|rem cur fin|c] eqn:EB; try discriminate H.
    destruct (stale s cur) eqn:ES; [injection H as <- <-; now apply Vframe|].
    destruct mx as [m|]; [destruct ((1 <=? m) && (m <=? Z.of_nat (length rem))) eqn:E|]; injection H as <- <-.
    + (* the first m records, 1 <= m <= what is buffered *)
      assert (NE : firstn (Z.to_nat m) rem <> []).
      { intros Z0. apply (f_equal (@length Z)) in Z0. rewrite firstn_length in Z0. cbn in Z0. lia. }
      rewrite <- (firstn_skipn (Z.to_nat m) rem) in EB. rewrite <- (adv_nonempty cur _ NE).
      now apply Vhand.
    + now apply (Vdrain L s _ rem cur fin).
    + now apply (Vdrain L s _ rem cur fin).
  - destruct (buf s) eqn:EB; try discriminate. destruct (pos s) eqn:EP; try discriminate.
    intros [= <-]. rewrite <- EP. now apply Vframe.
  - destruct (buf s) as [| |c] eqn:EB; try discriminate. destruct (c =? code); [|discriminate].
    intros [= <-]. now apply Vframe.
  - intros [= <-]. apply Vseek.
  - intros [= <-]. now apply Vlose.
  - destruct (pos s) eqn:EP; [discriminate|]. intros [= <-]. now apply Vreset.
  - intros [= <-]. apply Vpause.
  - intros [= <-]. apply Vresume.
  - destruct (opt_eqb (pos s) p) eqn:EP; [|discriminate]. intros [= <-]. apply Vposition, opt_eqb_true, EP.
Qed.

Lemma run_keeps none L (P : st -> Prop) (ok : ev -> bool) :
  (forall s e s', P s -> ok e = true -> step none L s e = Some s' -> P s') ->
  forall tr s s', P s -> forallb ok tr = true -> run none L s tr = Some s' -> P s'.
Proof.
  intros St. induction tr as [|e tr IH]; cbn; intros s s' H Ok R.
  - injection R as <-. exact H.
  - apply andb_true_iff in Ok. destruct (step none L s e) as [s1|] eqn:E1; [|discriminate].
    apply (IH s1); [apply (St s e); tauto|tauto|exact R].
Qed.

Lemma run_app none L t1 : forall s t2,
  run none L s (t1 ++ t2) = match run none L s t1 with Some s1 => run none L s1 t2 | None => None end.
Proof.
  induction t1 as [|e t1 IH]; simpl; intros s t2; [reflexivity|].
  destruct (step none L s e); [apply IH|reflexivity].
Qed.

(* the events that set no position.  SeekReset is among them: it gives the position up, and a state without a position
   is the other disjunct of [step_keeps_start]; props/C03.v, c03_seek_next_records, is where both are used *)
Definition no_reposition (e : ev) : bool :=
  match e with Seek _ | ResetTo _ => false | _ => true end.

Lemma step_keeps_start none L o s e s' : (pos s = None \/ start s = Some o) -> no_reposition e = true ->
  step none L s e = Some s' -> (pos s' = None \/ start s' = Some o).
Proof.
  intros J NR H. apply step_view in H.
  destruct H as [| | |e out rest cur fin _ ES _ _|e rem cur fin _ ES _| | | | |];
    cbn [pos start]; try exact J; try discriminate NR.
  - left. reflexivity.
  - right. destruct (stale_false _ _ ES) as (_ & Hp), J; congruence.
  - right. destruct (stale_false _ _ ES) as (_ & Hp), J; congruence.
Qed.

Section WithLog.
Variable L : list batch.

(* the buffer invariant: buffered data is always a truthful slice of the log *)
Definition buf_ok (s : st) : Prop :=
  match buf s with
  | Recs rem cur fin => rem = vis_between L cur fin /\ cur <= fin
  | _ => True
  end.

Lemma hand_many_position none s mx res s' : buf_ok s ->
  step none L s (HandMany mx res) = Some s' -> res <> [] ->
  exists p, pos s' = Some p /\ last_or 0 res + 1 <= p.     (* the default 0 is never read: res <> [] *)
Proof.
  unfold buf_ok. intros B Hs NE. apply step_view in Hs. remember (HandMany mx res) as e eqn:Ee.
  destruct Hs as [e b fl Hh _| |e b fl Hh _|e out rest cur fin EB _ _ Hh|e rem cur fin EB _ Hh| | | | |];
    try discriminate Ee; subst e; cbn [handed] in Hh.
  - congruence.
  - congruence.
  - subst out. eexists. split; [reflexivity|].
    rewrite (adv_nonempty _ _ NE), (last_or_indep res cur 0 NE). lia.
  - (* all of it: the last record lies inside the slice that was buffered *)
    subst rem. rewrite EB in B. destruct B as (Hrem & _). eexists. split; [reflexivity|].
    pose proof (last_or_in 0 res NE) as I. rewrite Hrem in I at 2. apply between_In in I. cbn [pos]. lia.
Qed.

Hypothesis WF : wf_log L = true.

Lemma visible_sorted : ssorted 0 (visible L).
Proof. apply (wf_visible_sorted L 0 WF). Qed.

Lemma vb_split a b c : a <= b <= c -> vis_between L a c = vis_between L a b ++ vis_between L b c.
Proof. apply (between_split _ 0); apply visible_sorted. Qed.

Lemma vb_first a b r t : vis_between L a b = r :: t ->
  a <= r < b /\ vis_between L a (r + 1) = [r] /\ vis_between L (r + 1) b = t.
Proof. apply (between_first _ 0); apply visible_sorted. Qed.

(* handing out a prefix of a truthful slice *)
Lemma slice_prefix : forall out rest cur fin,
  vis_between L cur fin = out ++ rest -> cur <= fin ->
  cur <= adv cur out <= fin /\ vis_between L cur (adv cur out) = out /\
  vis_between L (adv cur out) fin = rest.
Proof.
  induction out as [|r out IH]; intros rest cur fin E Hle.
  - simpl in *. split; [lia|]. split; [apply between_empty_range; lia|exact E].
  - simpl app in E. destruct (vb_first _ _ _ _ E) as (Hr & H1 & Ht).
    destruct (IH rest (r + 1) fin Ht ltac:(lia)) as (Ha & Hb & Hc).
    rewrite adv_cons. split; [lia|]. split; [|exact Hc].
    rewrite (vb_split cur (r + 1) (adv (r + 1) out)) by lia. rewrite H1, Hb. reflexivity.
Qed.

Lemma step_buf_ok none s e s' : buf_ok s -> step none L s e = Some s' -> buf_ok s'.
Proof.
  intros B H. apply step_view in H. unfold buf_ok in *.
  destruct H as [e b fl _ K|o code bs fl V NE|e b fl _ K|e out rest cur fin EB _ _ _| | | | | |];
    cbn [buf]; try exact I; try exact B.
  1, 3: destruct b; [exact I| |exact I]; rewrite <- (K _ _ _ eq_refl) in B; exact B.
  - destruct (unpack_valid L 0 o bs WF V NE) as (E1 & E2 & _). split; [exact E1|lia].
  - rewrite EB in B. destruct B as (Hrem & Hle). symmetry in Hrem.
    destruct (slice_prefix _ _ _ _ Hrem Hle) as (Ha & _ & Hc). split; [symmetry; exact Hc|lia].
Qed.

(* The specification automaton is exact: every finished run of deliveries, and the current one up to the
   position, is the slice of the visible records between its two ends. *)
Definition seg_ok (x : Z * Z * list Z) : Prop :=
  let '(a, e, ds) := x in a <= e /\ ds = vis_between L a e.

Definition sp_ok (s : sp) : Prop :=
  Forall seg_ok (s_hist s) /\
  (forall p, s_pos s = Some p -> exists a, s_start s = Some a /\ a <= p /\ s_seg s = vis_between L a p).

Lemma sinit_ok : sp_ok sinit.
Proof. split; [constructor|intros p H; discriminate]. Qed.

Lemma sclose_ok s : sp_ok s -> Forall seg_ok (sclose s).
Proof.
  intros (H1 & H2). unfold sclose. destruct (s_start s) as [a|] eqn:Ea; [|exact H1].
  destruct (s_pos s) as [p|] eqn:Ep; [|exact H1].
  apply Forall_app. split; [exact H1|]. constructor; [|constructor].
  destruct (H2 p eq_refl) as (a' & [= <-] & Hle & Hs). split; assumption.
Qed.

(* the position moves from q to p over exactly the records ds *)
Lemma advance_ok s q p ds : sp_ok s -> s_pos s = Some q -> q <= p -> vis_between L q p = ds ->
  sp_ok (mkSp (Some p) (s_paused s) (s_start s) (s_seg s ++ ds) (s_hist s)).
Proof.
  intros (H1 & H2) Hq Hqp E. split; [exact H1|]. cbn. intros p' [= <-].
  destruct (H2 q Hq) as (a & Ha & Hle & Hs). exists a. split; [exact Ha|]. split; [lia|].
  rewrite (vb_split a q p) by lia. rewrite Hs, E. reflexivity.
Qed.

(* a new run of deliveries starts at o *)
Lemma restart_ok o pa h : Forall seg_ok h -> sp_ok (mkSp (Some o) pa (Some o) [] h).
Proof.
  intros H. split; [exact H|]. cbn. intros p [= <-]. exists o. split; [reflexivity|]. split; [lia|].
  symmetry. apply between_empty_range. lia.
Qed.

Lemma skip_ok s q p : sp_ok s -> s_pos s = Some q -> (q <=? p) && zlist_eqb (vis_between L q p) [] = true ->
  sp_ok (mkSp (Some p) (s_paused s) (s_start s) (s_seg s) (s_hist s)).
Proof.
  intros OK Hq E. apply andb_true_iff in E. destruct E as (Hqp & E). apply zlist_eqb_eq in E.
  rewrite <- (app_nil_r (s_seg s)). apply (advance_ok s q p [] OK Hq); [lia|exact E].
Qed.

Lemma sstep_ok s e s' : sp_ok s -> sstep L s e = Some s' -> sp_ok s'.
Proof.
  intros OK. pose proof (sclose_ok s OK) as CL. destruct e; cbn [sstep].
  - destruct (s_pos s) as [p|] eqn:Ep; [|discriminate].
    destruct (negb (s_paused s) && zlist_eqb (vis_between L p (r + 1)) [r]) eqn:E; [|discriminate].
    apply andb_true_iff in E. destruct E as (_ & E). apply zlist_eqb_eq in E. intros [= <-].
    apply (advance_ok s p (r + 1) [r] OK Ep); [|exact E].
    assert (In r (vis_between L p (r + 1))) as I by (rewrite E; left; reflexivity). apply between_In in I. lia.
  - destruct (s_pos s) as [q|] eqn:Ep; [|discriminate].
    destruct (negb (s_paused s)); [|discriminate]. cbn [andb].
    destruct ((q <=? p) && zlist_eqb (vis_between L q p) []) eqn:E; [|discriminate].
    intros [= <-]. exact (skip_ok s q p OK Ep E).
  - intros [= <-]. apply restart_ok, CL.
  - intros [= <-]. split; [exact CL|]. intros q [=].
  - destruct (s_pos s) eqn:Ep; [discriminate|]. intros [= <-]. apply restart_ok, OK.
  - intros [= <-]. exact OK.
  - intros [= <-]. exact OK.
  - destruct (opt_eqb (s_pos s) p); [|discriminate]. intros [= <-]. exact OK.
Qed.

Lemma srun_ok tr : forall s s', sp_ok s -> srun L s tr = Some s' -> sp_ok s'.
Proof.
  induction tr as [|e tr IH]; simpl; intros s s' OK H; [injection H as <-; exact OK|].
  destruct (sstep L s e) as [s1|] eqn:E; [|discriminate].
  eapply IH; [eapply sstep_ok; eauto|exact H].
Qed.

Lemma srun_app t1 : forall s t2,
  srun L s (t1 ++ t2) = match srun L s t1 with Some s1 => srun L s1 t2 | None => None end.
Proof.
  induction t1 as [|e t1 IH]; simpl; intros s t2; [reflexivity|].
  destruct (sstep L s e); [apply IH|reflexivity].
Qed.

Lemma astep_ok s e s' : sp_ok s -> astep L s e = Some s' -> sp_ok s'.
Proof.
  intros OK. destruct e as [r|o| |o| | |p]; try apply (sstep_ok s _ s' OK).
  cbn [astep]. destruct (s_pos s) as [q|] eqn:Ep; [|discriminate].
  destruct ((q <=? p) && zlist_eqb (vis_between L q p) []) eqn:E; [|discriminate].
  intros [= <-]. exact (skip_ok s q p OK Ep E).
Qed.

Lemma arun_ok tr : forall s s', sp_ok s -> arun L s tr = Some s' -> sp_ok s'.
Proof.
  induction tr as [|e tr IH]; simpl; intros s s' OK H; [injection H as <-; exact OK|].
  destruct (astep L s e) as [s1|] eqn:E; [|discriminate].
  eapply IH; [eapply astep_ok; eauto|exact H].
Qed.

(* refinement: every step of the fetcher model is a run of the specification *)
Lemma deliver_run : forall out rest cur fin s0,
  vis_between L cur fin = out ++ rest -> s_pos s0 = Some cur -> s_paused s0 = false ->
  srun L s0 (map SDeliver out) =
    Some (mkSp (Some (adv cur out)) false (s_start s0) (s_seg s0 ++ out) (s_hist s0)).
Proof.
  induction out as [|r out IH]; intros rest cur fin s0 E Hp Hpa.
  - simpl. rewrite app_nil_r. destruct s0; simpl in *; subst. reflexivity.
  - simpl app in E. destruct (vb_first _ _ _ _ E) as (Hr & H1 & Ht).
    simpl. rewrite Hp, Hpa, H1. simpl. rewrite Z.eqb_refl. simpl.
    erewrite IH; [|exact Ht|reflexivity|reflexivity]. simpl.
    change (last_or r out + 1) with (adv cur (r :: out)).
    rewrite adv_cons, <- app_assoc. reflexivity.
Qed.

Lemma step_sim none s e s' : buf_ok s -> step none L s e = Some s' ->
  srun L (abs_st s) (abs_ev none s e) = Some (abs_st s').
Proof.
  intros B H. apply step_view in H. unfold buf_ok in B.
  destruct H as [| | |e out rest cur fin EB ES _ _|e rem cur fin EB ES _| |o EP| | |p EP]; try reflexivity.
  - rewrite EB in B. destruct B as (Hrem & _). destruct (stale_false _ _ ES) as (Hpa & Hpos).
    rewrite (deliver_run out rest cur fin (abs_st s)); [|symmetry; exact Hrem|exact Hpos|exact Hpa].
    unfold abs_st. cbn. rewrite Hpa. reflexivity.
  - (* everything buffered, then the skip to the end of the last batch fetched *)
    rewrite EB in B. destruct B as (Hrem & Hle). destruct (stale_false _ _ ES) as (Hpa & Hpos).
    symmetry in Hrem. rewrite <- (app_nil_r rem) in Hrem.
    destruct (slice_prefix rem [] cur fin Hrem Hle) as (Ha & _ & Hc).
    rewrite srun_app, (deliver_run rem [] cur fin (abs_st s) Hrem Hpos Hpa).
    cbn. rewrite Hc. cbn. replace (adv cur rem <=? fin) with true by lia.
    unfold abs_st. cbn. rewrite Hpa. reflexivity.
  - unfold abs_st at 1. cbn. rewrite EP. reflexivity.
  - unfold abs_st. cbn. rewrite EP. cbn. rewrite Z.eqb_refl. reflexivity.
Qed.

Theorem run_refines none tr : forall s s', buf_ok s -> run none L s tr = Some s' ->
  buf_ok s' /\ srun L (abs_st s) (abs_trace none L s tr) = Some (abs_st s').
Proof.
  induction tr as [|e tr IH]; simpl; intros s s' B H; [injection H as <-; split; [exact B|reflexivity]|].
  destruct (step none L s e) as [s1|] eqn:E; [|discriminate].
  rewrite srun_app, (step_sim _ _ _ _ B E). apply IH; [eapply step_buf_ok; eauto|exact H].
Qed.

Lemma reachable_ok none tr s : run none L init tr = Some s -> buf_ok s /\ sp_ok (abs_st s).
Proof.
  intros H. destruct (run_refines none tr init s I H) as (B & R). split; [exact B|].
  exact (srun_ok _ _ _ sinit_ok R).
Qed.

End WithLog.

Theorem buffered_not_fetched none L s o : buf s <> NoBuf -> step none L s (FetchSent o) = None.
Proof. intros H. simpl. destruct (buf s); [congruence|reflexivity|reflexivity]. Qed.

(* A boolean function of finitely many finite-type arguments is checked for all arguments by evaluation. *)
From Coq Require Import ZArith List Bool Arith Lia.
From Verif Require Import DispatchActs C06_Converge.
Import ListNotations.
Local Open Scope nat_scope.

Definition fb (f : bool -> bool) : bool := f true && f false.
Lemma fb_spec : forall f, fb f = true -> forall b, f b = true.
Proof. intros f H b. unfold fb in H. apply andb_true_iff in H. destruct H. destruct b; assumption. Qed.

Definition fst4 (f : cstate -> bool) : bool := f CEmpty && f CPreparing && f CCompleting && f CStable.
Lemma fst4_spec : forall f, fst4 f = true -> forall x, f x = true.
Proof. intros f H x. unfold fst4 in H. repeat (apply andb_true_iff in H; destruct H as [H ?]). destruct x; assumption. Qed.

Definition fph (f : phase -> bool) : bool := f PIdle && f PJoinSent && f PJoined && f PSyncSent.
Lemma fph_spec : forall f, fph f = true -> forall x, f x = true.
Proof. intros f H x. unfold fph in H. repeat (apply andb_true_iff in H; destruct H as [H ?]). destruct x; assumption. Qed.

Definition fck (f : ckst -> bool) : bool := f CkNone && f CkStale && f CkOk.
Lemma fck_spec : forall f, fck f = true -> forall x, f x = true.
Proof. intros f H x. unfold fck in H. repeat (apply andb_true_iff in H; destruct H as [H ?]). destruct x; assumption. Qed.

Lemma zmem_forallb : forall (f : Z -> bool) l z, zmem z l = true -> forallb f l = true -> f z = true.
Proof.
  intros f l z Hz Hl. unfold zmem in Hz. apply existsb_exists in Hz. destruct Hz as [y [Hy E]]. apply Z.eqb_eq in E. subst y.
  rewrite forallb_forall in Hl. apply Hl. exact Hy.
Qed.

(* optional reply code from a finite list; any other code satisfies [f] because the premise [opt_in] fails *)
Definition fcodes (l : list Z) (f : option Z -> bool) : bool := f None && forallb (fun z => f (Some z)) l.
Lemma fcodes_spec : forall l f, fcodes l f = true -> forall o, opt_in o l = true -> f o = true.
Proof.
  intros l f H o Ho. unfold fcodes in H. apply andb_true_iff in H. destruct H as [Hn Hl].
  destruct o as [z|]; [exact (zmem_forallb _ l z Ho Hl) | exact Hn].
Qed.

Definition ib_ok (i : ibk) : bool :=
  match i with INone => true | IJ c => zmem c join_codes | IS c => zmem c probe_codes end.
Definition fib (f : ibk -> bool) : bool :=
  f INone && forallb (fun z => f (IJ z)) join_codes && forallb (fun z => f (IS z)) probe_codes.
Lemma fib_spec : forall f, fib f = true -> forall i, ib_ok i = true -> f i = true.
Proof.
  intros f H i Hi. unfold fib in H. apply andb_true_iff in H. destruct H as [H HS]. apply andb_true_iff in H. destruct H as [HN HJ].
  destruct i as [|c|c]; [exact HN | exact (zmem_forallb _ _ c Hi HJ) | exact (zmem_forallb _ _ c Hi HS)].
Qed.

(* an id against the coordinator's table: = 0, in the table, pending, parked-join flag, parked-sync flag *)
Definition cons_id (z e p jp sp : bool) : bool :=
  (negb z || (negb e && negb p)) && (negb e || negb p) && (e || (negb jp && negb sp)).
(* a generation against the coordinator's: = 0, equal, less or equal; [G0]: the coordinator's is 0 *)
Definition cons_gen (G0 z eq le : bool) : bool :=
  (negb eq || le) && (negb z || le) && (negb G0 || Bool.eqb z eq) && (G0 || negb (z && eq)) && (negb (G0 && le) || z).

(* what the coordinator's state says about an id of the table: flags only in the matching state *)
Definition cons_st (st : cstate) (G0 e jp sp : bool) : bool :=
  (negb (cstate_eqb st CEmpty) || negb e) && (cstate_eqb st CPreparing || negb jp) && (cstate_eqb st CCompleting || negb sp)
  && (match st with CCompleting | CStable => negb G0 | _ => true end).

Definition cons_focus (ph : phase) (idz id_e id_p id_jp id_sp fz f_e f_p f_jp f_sp f_id : bool) : bool :=
  if ph_eqb ph PJoinSent then
    cons_id fz f_e f_p f_jp f_sp
    && (negb f_id || (Bool.eqb fz idz && Bool.eqb f_e id_e && Bool.eqb f_p id_p && Bool.eqb f_jp id_jp && Bool.eqb f_sp id_sp))
    && (negb (fz && idz) || f_id)
  else fz && negb f_e && negb f_p && negb f_jp && negb f_sp && Bool.eqb f_id idz.
Definition cons_g (ib : ibk) (G0 gz g_eq g_le : bool) : bool :=
  match ib with IJ _ => cons_gen G0 gz g_eq g_le | _ => gz && Bool.eqb g_eq G0 && g_le end.

(* the consistency facts that hold of every [absm c m] when the coordinator is well-formed
   ([cons_absm_w], C06_conv_abs.v) *)
Definition cons_a (a : av) : bool :=
  cons_id (a_idz a) (a_id_e a) (a_id_p a) (a_id_jp a) (a_id_sp a)
  && cons_st (a_st a) (a_G0 a) (a_id_e a) (a_id_jp a) (a_id_sp a)
  && cons_st (a_st a) (a_G0 a) (a_f_e a) (a_f_jp a) (a_f_sp a)
  && cons_gen (a_G0 a) (a_genz a) (a_gen_eq a) (a_gen_le a)
  && cons_focus (a_ph a) (a_idz a) (a_id_e a) (a_id_p a) (a_id_jp a) (a_id_sp a)
                (a_fz a) (a_f_e a) (a_f_p a) (a_f_jp a) (a_f_sp a) (a_f_id a)
  && cons_g (a_ib a) (a_G0 a) (a_gz a) (a_g_eq a) (a_g_le a)
  && ib_ok (a_ib a) && opt_in (a_hbin a) probe_codes && opt_in (a_cmin a) probe_codes.

Definition fin_t := bool -> phase -> ibk -> bool -> ckst -> bool -> option Z -> option Z -> cstate -> bool.
Definition fin_of (p : fin_t) (a : av) : bool :=
  p (a_live a) (a_ph a) (a_ib a) (a_rejoin a) (a_ck a) (a_hb a) (a_hbin a) (a_cmin a) (a_st a).

(* enumeration of the finite view [av] of a member, pruned by [pre] on the fields of finite type and by the
   clauses of [cons_a] as soon as the fields they read are bound *)
Definition forall_av (pre : fin_t) (P : av -> bool) : bool :=
  fb (fun live => fph (fun ph => fib (fun ib => fb (fun rejoin => fck (fun ck => fb (fun hb =>
  fcodes probe_codes (fun hbin => fcodes probe_codes (fun cmin => fst4 (fun st =>
    if pre live ph ib rejoin ck hb hbin cmin st then
      fb (fun G0 =>
      fb (fun idz => fb (fun id_e => fb (fun id_p => fb (fun id_jp => fb (fun id_sp =>
        if cons_id idz id_e id_p id_jp id_sp && cons_st st G0 id_e id_jp id_sp then
      fb (fun genz => fb (fun gen_eq => fb (fun gen_le =>
        if cons_gen G0 genz gen_eq gen_le then
      fb (fun fz => fb (fun f_e => fb (fun f_p => fb (fun f_jp => fb (fun f_sp => fb (fun f_id =>
        if cons_focus ph idz id_e id_p id_jp id_sp fz f_e f_p f_jp f_sp f_id && cons_st st G0 f_e f_jp f_sp then
      fb (fun gz => fb (fun g_eq => fb (fun g_le =>
        if cons_g ib G0 gz g_eq g_le then
          P (mkA live ph rejoin ck hb ib hbin cmin st G0 idz id_e id_p id_jp id_sp genz gen_eq gen_le
                 fz f_e f_p f_jp f_sp f_id gz g_eq g_le)
        else true)))
        else true))))))
        else true)))
        else true))))))
    else true))))))))).

Lemma forall_av_spec : forall pre P, forall_av pre P = true ->
  forall a, cons_a a = true -> fin_of pre a = true -> P a = true.
Proof.
  intros pre P H a Hc Hp. destruct a as [live ph rejoin ck hb ib hbin cmin st G0 idz id_e id_p id_jp id_sp genz gen_eq gen_le
                                            fz f_e f_p f_jp f_sp f_id gz g_eq g_le].
  unfold cons_a in Hc. simpl in Hc. unfold fin_of in Hp. simpl in Hp.
  apply andb_true_iff in Hc; destruct Hc as [Hc Ccm]. apply andb_true_iff in Hc; destruct Hc as [Hc Chb].
  apply andb_true_iff in Hc; destruct Hc as [Hc Cib]. apply andb_true_iff in Hc; destruct Hc as [Hc Cg].
  apply andb_true_iff in Hc; destruct Hc as [Hc Cf]. apply andb_true_iff in Hc; destruct Hc as [Hc Cgen].
  apply andb_true_iff in Hc; destruct Hc as [Hc Cst2]. apply andb_true_iff in Hc; destruct Hc as [Cid Cst1].
  unfold forall_av in H.
  apply fb_spec with (b := live) in H. apply fph_spec with (x := ph) in H. apply fib_spec with (i := ib) in H; [|assumption].
  apply fb_spec with (b := rejoin) in H. apply fck_spec with (x := ck) in H. apply fb_spec with (b := hb) in H.
  apply fcodes_spec with (o := hbin) in H; [|assumption]. apply fcodes_spec with (o := cmin) in H; [|assumption].
  apply fst4_spec with (x := st) in H. rewrite Hp in H.
  apply fb_spec with (b := G0) in H.
  apply fb_spec with (b := idz) in H. apply fb_spec with (b := id_e) in H. apply fb_spec with (b := id_p) in H.
  apply fb_spec with (b := id_jp) in H. apply fb_spec with (b := id_sp) in H. rewrite Cid, Cst1 in H. cbn [andb] in H.
  apply fb_spec with (b := genz) in H. apply fb_spec with (b := gen_eq) in H. apply fb_spec with (b := gen_le) in H.
  rewrite Cgen in H.
  apply fb_spec with (b := fz) in H. apply fb_spec with (b := f_e) in H. apply fb_spec with (b := f_p) in H.
  apply fb_spec with (b := f_jp) in H. apply fb_spec with (b := f_sp) in H. apply fb_spec with (b := f_id) in H.
  rewrite Cf, Cst2 in H. cbn [andb] in H.
  apply fb_spec with (b := gz) in H. apply fb_spec with (b := g_eq) in H. apply fb_spec with (b := g_le) in H.
  rewrite Cg in H. exact H.
Qed.

(* the same without the two blind loops (outside PJoinSent the focus fields have one consistent value, and so have the
   reply-generation fields without a JoinGroup reply in the inbox): the one that is evaluated *)
Definition forall_view (pre : fin_t) (P : av -> bool) : bool :=
  fb (fun live => fph (fun ph => fib (fun ib => fb (fun rejoin => fck (fun ck => fb (fun hb =>
  fcodes probe_codes (fun hbin => fcodes probe_codes (fun cmin => fst4 (fun st =>
    if pre live ph ib rejoin ck hb hbin cmin st then
      fb (fun G0 =>
      fb (fun idz => fb (fun id_e => fb (fun id_p => fb (fun id_jp => fb (fun id_sp =>
        if cons_id idz id_e id_p id_jp id_sp && cons_st st G0 id_e id_jp id_sp then
      fb (fun genz => fb (fun gen_eq => fb (fun gen_le =>
        if cons_gen G0 genz gen_eq gen_le then
          let with_focus := fun fz f_e f_p f_jp f_sp f_id =>
            let view := mkA live ph rejoin ck hb ib hbin cmin st G0 idz id_e id_p id_jp id_sp genz gen_eq gen_le
                            fz f_e f_p f_jp f_sp f_id in
            match ib with
            | IJ _ => fb (fun gz => fb (fun g_eq => fb (fun g_le =>
                        if cons_gen G0 gz g_eq g_le then P (view gz g_eq g_le) else true)))
            | _ => P (view true G0 true)
            end in
          if ph_eqb ph PJoinSent then
            fb (fun fz => fb (fun f_e => fb (fun f_p => fb (fun f_jp => fb (fun f_sp => fb (fun f_id =>
              if cons_focus ph idz id_e id_p id_jp id_sp fz f_e f_p f_jp f_sp f_id && cons_st st G0 f_e f_jp f_sp
              then with_focus fz f_e f_p f_jp f_sp f_id else true))))))
          else with_focus true false false false false idz
        else true)))
        else true))))))
    else true))))))))).

Lemma forall_view_spec : forall pre P, forall_view pre P = true ->
  forall a, cons_a a = true -> fin_of pre a = true -> P a = true.
Proof.
  intros pre P H a Hc Hp. destruct a as [live ph rejoin ck hb ib hbin cmin st G0 idz id_e id_p id_jp id_sp genz gen_eq gen_le
                                            fz f_e f_p f_jp f_sp f_id gz g_eq g_le].
  unfold cons_a in Hc. simpl in Hc. unfold fin_of in Hp. simpl in Hp.
  apply andb_true_iff in Hc; destruct Hc as [Hc Ccm]. apply andb_true_iff in Hc; destruct Hc as [Hc Chb].
  apply andb_true_iff in Hc; destruct Hc as [Hc Cib]. apply andb_true_iff in Hc; destruct Hc as [Hc Cg].
  apply andb_true_iff in Hc; destruct Hc as [Hc Cf]. apply andb_true_iff in Hc; destruct Hc as [Hc Cgen].
  apply andb_true_iff in Hc; destruct Hc as [Hc Cst2]. apply andb_true_iff in Hc; destruct Hc as [Cid Cst1].
  unfold forall_view in H.
  apply fb_spec with (b := live) in H. apply fph_spec with (x := ph) in H. apply fib_spec with (i := ib) in H; [|assumption].
  apply fb_spec with (b := rejoin) in H. apply fck_spec with (x := ck) in H. apply fb_spec with (b := hb) in H.
  apply fcodes_spec with (o := hbin) in H; [|assumption]. apply fcodes_spec with (o := cmin) in H; [|assumption].
  apply fst4_spec with (x := st) in H. rewrite Hp in H.
  apply fb_spec with (b := G0) in H.
  apply fb_spec with (b := idz) in H. apply fb_spec with (b := id_e) in H. apply fb_spec with (b := id_p) in H.
  apply fb_spec with (b := id_jp) in H. apply fb_spec with (b := id_sp) in H. rewrite Cid, Cst1 in H. cbn [andb] in H.
  apply fb_spec with (b := genz) in H. apply fb_spec with (b := gen_eq) in H. apply fb_spec with (b := gen_le) in H.
  rewrite Cgen in H. cbv zeta in H.
  (* the reply generation, for any focus *)
  assert (Hg : forall x, match ib with
                         | IJ _ => fb (fun gz => fb (fun g_eq => fb (fun g_le => if cons_gen G0 gz g_eq g_le then P (x gz g_eq g_le) else true)))
                         | _ => P (x true G0 true) end = true -> P (x gz g_eq g_le) = true).
  { intros x Hx. unfold cons_g in Cg. destruct ib.
    - apply andb_true_iff in Cg; destruct Cg as [Cg C3]. apply andb_true_iff in Cg; destruct Cg as [C1 C2].
      apply eqb_prop in C2. subst gz g_eq g_le. exact Hx.
    - apply fb_spec with (b := gz) in Hx. apply fb_spec with (b := g_eq) in Hx. apply fb_spec with (b := g_le) in Hx.
      rewrite Cg in Hx. exact Hx.
    - apply andb_true_iff in Cg; destruct Cg as [Cg C3]. apply andb_true_iff in Cg; destruct Cg as [C1 C2].
      apply eqb_prop in C2. subst gz g_eq g_le. exact Hx. }
  apply Hg. unfold cons_focus in Cf. destruct (ph_eqb ph PJoinSent) eqn:Ep.
  - apply fb_spec with (b := fz) in H. apply fb_spec with (b := f_e) in H. apply fb_spec with (b := f_p) in H.
    apply fb_spec with (b := f_jp) in H. apply fb_spec with (b := f_sp) in H. apply fb_spec with (b := f_id) in H.
    unfold cons_focus in H. rewrite Ep, Cf, Cst2 in H. exact H.
  - apply andb_true_iff in Cf; destruct Cf as [Cf F6]. apply andb_true_iff in Cf; destruct Cf as [Cf F5].
    apply andb_true_iff in Cf; destruct Cf as [Cf F4]. apply andb_true_iff in Cf; destruct Cf as [Cf F3].
    apply andb_true_iff in Cf; destruct Cf as [F1 F2]. apply negb_true_iff in F2, F3, F4, F5. apply eqb_prop in F6.
    subst. exact H.
Qed.

(* the converse: a predicate that holds of every view passes the enumeration, whatever the pruning *)
Lemma fb_intro : forall f, (forall b, f b = true) -> fb f = true.
Proof. intros f H. unfold fb. rewrite !H. reflexivity. Qed.
Lemma fst4_intro : forall f, (forall x, f x = true) -> fst4 f = true.
Proof. intros f H. unfold fst4. rewrite !H. reflexivity. Qed.
Lemma fph_intro : forall f, (forall x, f x = true) -> fph f = true.
Proof. intros f H. unfold fph. rewrite !H. reflexivity. Qed.
Lemma fck_intro : forall f, (forall x, f x = true) -> fck f = true.
Proof. intros f H. unfold fck. rewrite !H. reflexivity. Qed.
Lemma fcodes_intro : forall l f, (forall o, f o = true) -> fcodes l f = true.
Proof. intros l f H. unfold fcodes. rewrite H. apply forallb_forall. intros z _. apply H. Qed.
Lemma fib_intro : forall f, (forall i, f i = true) -> fib f = true.
Proof. intros f H. unfold fib. rewrite H. cbn [andb]. apply andb_true_iff. split; apply forallb_forall; intros z _; apply H. Qed.
Lemma if_true_intro : forall b c : bool, (b = true -> c = true) -> (if b then c else true) = true.
Proof. intros [|] c H; [apply H|]; reflexivity. Qed.

Lemma forall_av_intro : forall pre P, (forall a, P a = true) -> forall_av pre P = true.
Proof.
  intros pre P H. unfold forall_av.
  apply fb_intro; intros live. apply fph_intro; intros ph. apply fib_intro; intros ib. apply fb_intro; intros rejoin.
  apply fck_intro; intros ck. apply fb_intro; intros hb. apply fcodes_intro; intros hbin. apply fcodes_intro; intros cmin.
  apply fst4_intro; intros st.
  (* the 18 boolean fields that are left, a pruning test after each group *)
  repeat first [apply fb_intro; intro | apply if_true_intro; intros _]. apply H.
Qed.

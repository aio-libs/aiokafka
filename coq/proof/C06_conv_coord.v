(* The coordinator's operations: well-formedness of the result and what each does to the view of a member. *)
From Coq Require Import ZArith List Bool Arith Lia.
From Verif Require Import DispatchActs HeartbeatDispatch JoinRetryDispatch JoinDispatch SyncDispatch CommitDispatch
  C06_Converge C06_conv_lib C06_conv_refl C06_conv_abs C06_conv_checks C06_conv_step C06_conv_cases.
Import ListNotations.
Local Open Scope nat_scope.

Lemma waiting_abs : forall c m, a_waiting_join (absm c m) = waiting_join m /\ a_waiting_sync (absm c m) = waiting_sync m.
Proof.
  intros c m. unfold a_waiting_join, a_waiting_sync, waiting_join, waiting_sync, absm, ib_of. pcbn.
  destruct (m_inbox m) as [[? ?|?]|]; split; reflexivity.
Qed.

(* the coordinator after _prepare_rebalance ([ev] = EvPrepare, [st] = CPreparing, [code] = 27) or after the leader's
   SyncGroup (EvSyncDone, CStable, 0), as seen by a member: same table up to the cleared sync flags *)
Lemma absm_T_sync : forall ev st code c c' m,
  (forall m0, bcast1 m0 ev = if waiting_sync m0 then set_inbox (Some (RpSync code)) m0 else m0) ->
  c_st c' = st -> c_gen c' = c_gen c -> c_pend c' = c_pend c -> c_ents c' = clear_sp (c_ents c) ->
  absm c' (bcast [ev] m) = T_sync st code (absm c m).
Proof.
  intros ev st code c c' m Hev Hst Hg Hp He. destruct (waiting_abs c m) as [_ Ws].
  unfold T_sync. rewrite Ws. unfold bcast. cbn [fold_left]. rewrite Hev.
  assert (Hj : forall x, ent_jp c' x = ent_jp c x) by (intros x; rewrite !ent_jp_flag, He; apply (flag_clear x (c_ents c))).
  assert (Hs : forall x, ent_sp c' x = false) by (intros x; rewrite ent_sp_flag, He; apply (flag_clear x (c_ents c))).
  unfold absm. rewrite Hst, Hg, Hp, He, ids_clear_sp.
  destruct (waiting_sync m) eqn:W.
  - unfold waiting_sync in W. apply andb_true_iff in W. destruct W as [W1 W2].
    assert (P : m_ph m = PSyncSent) by (destruct (m_ph m); try discriminate; reflexivity).
    assert (I : m_inbox m = None) by (destruct (m_inbox m); [discriminate | reflexivity]).
    unfold focus_of, rgen_of, ib_of. pcbn. rewrite P, I. cbn [ph_eqb]. rewrite !Hj, !Hs. reflexivity.
  - unfold focus_of, rgen_of, ib_of. pcbn. rewrite !Hj, !Hs. reflexivity.
Qed.

(* _complete_join: generation + 1; needs m_gen <= c_gen and the reply generation <= c_gen *)
Lemma absm_T_barrier : forall c c' m, c_st c' = CCompleting -> c_gen c' = S (c_gen c) -> c_pend c' = c_pend c ->
  c_ents c' = clear_jp (c_ents c) -> m_gen m <= c_gen c -> rgen_of m <= c_gen c ->
  absm c' (bcast [EvJoinDone (S (c_gen c))] m) = T_barrier (absm c m).
Proof.
  intros c c' m Hst Hg Hp He Hgen Hrg. destruct (waiting_abs c m) as [Wj _].
  unfold T_barrier. rewrite Wj. unfold bcast. cbn [fold_left bcast1].
  assert (Hj : forall x, ent_jp c' x = false) by (intros x; rewrite ent_jp_flag, He; apply (flag_clear x (c_ents c))).
  assert (Hs : forall x, ent_sp c' x = ent_sp c x) by (intros x; rewrite !ent_sp_flag, He; apply (flag_clear x (c_ents c))).
  assert (G1 : (m_gen m =? S (c_gen c)) = false) by (apply Nat.eqb_neq; lia).
  assert (G2 : (m_gen m <=? S (c_gen c)) = true) by (apply Nat.leb_le; lia).
  unfold absm. rewrite Hst, Hg, Hp, He, ids_clear_jp.
  destruct (waiting_join m) eqn:W.
  - unfold waiting_join in W. apply andb_true_iff in W. destruct W as [W1 W2].
    assert (P : m_ph m = PJoinSent) by (destruct (m_ph m); try discriminate; reflexivity).
    unfold focus_of, rgen_of, ib_of. pcbn. rewrite P. cbn [ph_eqb]. rewrite !Hj, !Hs, G1, G2, Nat.eqb_refl.
    replace (S (c_gen c) <=? S (c_gen c)) with true by (symmetry; apply Nat.leb_refl). reflexivity.
  - assert (R1 : (rgen_of m =? S (c_gen c)) = false) by (apply Nat.eqb_neq; lia).
    assert (R2 : (rgen_of m <=? S (c_gen c)) = true) by (apply Nat.leb_le; lia).
    unfold focus_of, ib_of. pcbn. rewrite !Hj, !Hs, G1, G2, R1, R2. reflexivity.
Qed.

Lemma forallb_clear_jp : forall es, forallb (fun e => negb (e_jp e)) (clear_jp es) = true.
Proof. induction es; [reflexivity | exact IHes]. Qed.
Lemma forallb_clear_sp : forall es, forallb (fun e => negb (e_sp e)) (clear_sp es) = true.
Proof. induction es; [reflexivity | exact IHes]. Qed.
Lemma forallb_jp_clear_sp : forall es, forallb (fun e => negb (e_jp e)) (clear_sp es) = forallb (fun e => negb (e_jp e)) es.
Proof. induction es as [|e r IH]; [reflexivity|]. cbn [clear_sp map forallb e_jp]. unfold clear_sp in IH. rewrite IH. reflexivity. Qed.
Lemma forallb_sp_clear_jp : forall es, forallb (fun e => negb (e_sp e)) (clear_jp es) = forallb (fun e => negb (e_sp e)) es.
Proof. induction es as [|e r IH]; [reflexivity|]. cbn [clear_jp map forallb e_sp]. unfold clear_jp in IH. rewrite IH. reflexivity. Qed.
Lemma all_joined_clear_sp : forall es, all_joined (clear_sp es) = all_joined es.
Proof. unfold all_joined. induction es as [|e r IH]; [reflexivity|]. cbn [clear_sp map forallb e_jp]. unfold clear_sp in IH. rewrite IH. reflexivity. Qed.
Lemma hd_clear_sp : forall es, is_none (hd_error (clear_sp es)) = is_none (hd_error es).
Proof. destruct es; reflexivity. Qed.
Lemma hd_clear_jp : forall es, is_none (hd_error (clear_jp es)) = is_none (hd_error es).
Proof. destruct es; reflexivity. Qed.

Lemma min_id_in : forall es, es <> [] -> In (min_id es) (ids es).
Proof.
  intros es H. unfold min_id. destruct (ids es) as [|x r] eqn:E; [destruct es; [congruence | discriminate]|].
  clear E H. revert x. induction r as [|y r IH]; intros x; [left; reflexivity|]. cbn [fold_left].
  destruct (IH (Nat.min x y)) as [E|E].
  - destruct (Nat.min_spec x y) as [[_ M]|[_ M]]; rewrite M in E |- *; [left | right; left]; exact E.
  - right. right. exact E.
Qed.

(* the id part of well-formedness *)
Definition tbl_ok (es : list entry) (pend : list nat) : Prop :=
  nodupb (ids es) = true /\ memb 0 (ids es) = false /\ memb 0 pend = false
  /\ forallb (fun x => negb (memb x (ids es))) pend = true.
Lemma tbl_of_wcw : forall c, wf_cw c -> tbl_ok (c_ents c) (c_pend c).
Proof. intros c W. repeat split; [exact (ww_nodup c W) | exact (ww_0e c W) | exact (ww_0p c W) | exact (ww_pend c W)]. Qed.

Lemma wcw_preparing : forall G es pend ldr, tbl_ok es pend -> forallb (fun e => negb (e_sp e)) es = true -> wf_cw (mkC G CPreparing es pend ldr).
Proof. intros G es pend ldr (T1 & T2 & T3 & T4) Hs. constructor; cbn [c_st c_ents c_pend c_gen cstate_eqb negb orb]; try assumption; try reflexivity. Qed.

Lemma wfc_preparing : forall c, wf_cw c -> c_st c = CPreparing -> c_ents c <> [] -> all_joined (c_ents c) = false -> wf_c c = true.
Proof.
  intros c [N Z0 P0 Pd _ _ Hsp _] Hst Hne Hnj. rewrite Hst in Hsp. cbn [cstate_eqb orb] in Hsp.
  apply wf_c_of_parts. constructor; rewrite ?Hst; cbn [cstate_eqb negb orb]; try assumption; try reflexivity.
  - destruct (c_ents c); [congruence | reflexivity].
  - rewrite Hnj. reflexivity.
  - unfold ent_sp. apply (find_ent_flag e_sp). exact Hsp.
Qed.

(* _prepare_rebalance *)
Lemma wcw_prepare : forall G es pend ldr, tbl_ok es pend -> wf_cw (mkC G CPreparing (clear_sp es) pend ldr).
Proof.
  intros G es pend ldr T. apply wcw_preparing; [|apply forallb_clear_sp]. unfold tbl_ok. rewrite ids_clear_sp. exact T.
Qed.
Lemma wfc_prepare : forall G es pend ldr, tbl_ok es pend -> es <> [] -> all_joined es = false ->
  wf_c (mkC G CPreparing (clear_sp es) pend ldr) = true.
Proof.
  intros G es pend ldr T Hne Hnj. apply wfc_preparing; [apply wcw_prepare; exact T | reflexivity | | ]; cbn [c_ents].
  - destruct es; [congruence | discriminate].
  - rewrite all_joined_clear_sp. exact Hnj.
Qed.

(* _complete_join: stage 3 of a JoinGroup for the id x, after 1 the table edited ([ents1]) and 2 _prepare_rebalance
   ([c1_of], [c2_of], C06_conv_epoch.v) *)
Definition c3_of (cP : coord) : coord :=
  mkC (S (c_gen cP)) CCompleting (clear_jp (c_ents cP)) (c_pend cP)
      (if memb (c_leader cP) (ids (c_ents cP)) then c_leader cP else min_id (c_ents cP)).
Lemma wfc_complete : forall cP, wf_cw cP -> c_st cP = CPreparing -> c_ents cP <> [] -> wf_c (c3_of cP) = true.
Proof.
  intros cP [T1 T2 T3 T4 _ _ Hsp _] Hst Hne. rewrite Hst in Hsp. cbn [cstate_eqb orb] in Hsp.
  apply wf_c_of_parts. constructor; cbn [c3_of c_gen c_st c_ents c_pend c_leader cstate_eqb negb orb]; rewrite ?ids_clear_jp; try assumption; try reflexivity.
  - rewrite hd_clear_jp. destruct (c_ents cP); [congruence | reflexivity].
  - apply forallb_clear_jp.
  - cbn [Nat.eqb andb negb]. rewrite andb_true_r.
    destruct (memb (c_leader cP) (ids (c_ents cP))) eqn:E; [exact E|]. apply memb_In. apply min_id_in. exact Hne.
  - unfold ent_sp, c3_of. cbn [c_ents]. apply (find_ent_flag e_sp). rewrite forallb_sp_clear_jp. exact Hsp.
Qed.

(* the leader's SyncGroup *)
Lemma wfc_syncdone : forall c, wf_c_facts c -> c_st c = CCompleting ->
  wf_c (mkC (c_gen c) CStable (clear_sp (c_ents c)) (c_pend c) (c_leader c)) = true.
Proof.
  intros c W Hst. apply wf_c_of_parts. pose proof (wc_leader c W) as Hl. pose proof (wc_jp c W) as Hj. pose proof (wc_nonempty c W) as Hn.
  rewrite Hst in Hl, Hj, Hn. cbn [cstate_eqb orb] in Hj, Hn.
  constructor; cbn [c_gen c_st c_ents c_pend c_leader cstate_eqb negb orb].
  - rewrite ids_clear_sp. exact (wc_nodup c W).
  - rewrite ids_clear_sp. exact (wc_0e c W).
  - exact (wc_0p c W).
  - rewrite ids_clear_sp. exact (wc_pend c W).
  - rewrite hd_clear_sp. exact Hn.
  - reflexivity.
  - rewrite forallb_jp_clear_sp. exact Hj.
  - apply forallb_clear_sp.
  - reflexivity.
  - rewrite ids_clear_sp. exact Hl.
  - unfold ent_sp. cbn [c_ents]. apply (find_ent_flag e_sp). apply forallb_clear_sp.
Qed.

(* the table after a JoinGroup for the id x has been accepted *)
Definition ents1 (es : list entry) (x : nat) : list entry :=
  if negb (memb x (ids es)) then es ++ [mkE x true false] else set_jp x true es.

Lemma ids_ents1 : forall es x, ids (ents1 es x) = ids es ++ (if memb x (ids es) then [] else [x]).
Proof. intros es x. unfold ents1. destruct (memb x (ids es)); cbn [negb]; [rewrite app_nil_r; apply ids_set_jp | apply ids_app]. Qed.
Lemma memb_ents1 : forall es x y, memb y (ids (ents1 es x)) = memb y (ids es) || (y =? x).
Proof.
  intros es x y. rewrite ids_ents1. destruct (memb x (ids es)) eqn:E.
  - rewrite app_nil_r. destruct (Nat.eqb_spec y x) as [->|]; [rewrite E; reflexivity | rewrite orb_false_r; reflexivity].
  - rewrite memb_app. unfold memb at 2. cbn [existsb]. rewrite orb_false_r. reflexivity.
Qed.
Lemma flags_ents1 : forall es x y,
  flag_of e_jp y (ents1 es x) = (if y =? x then true else flag_of e_jp y es)
  /\ flag_of e_sp y (ents1 es x) = flag_of e_sp y es.
Proof.
  intros es x y. unfold ents1. destruct (memb x (ids es)) eqn:E; cbn [negb].
  - destruct (flag_set_jp x true y es) as [A B]. rewrite A, B. split; [|reflexivity].
    destruct (Nat.eqb_spec y x) as [->|]; [rewrite E; reflexivity | reflexivity].
  - rewrite !flag_app_new by exact E. cbn [e_id e_jp e_sp]. split; [reflexivity|].
    destruct (Nat.eqb_spec y x) as [->|]; [|reflexivity]. unfold flag_of. rewrite (find_ent_none x es E). reflexivity.
Qed.
Lemma nodupb_snoc : forall l x, nodupb l = true -> memb x l = false -> nodupb (l ++ [x]) = true.
Proof.
  induction l as [|a r IH]; intros x H Hx; [reflexivity|]. cbn [app nodupb] in *. apply andb_true_iff in H. destruct H as [H1 H2].
  unfold memb in Hx. cbn [existsb] in Hx. apply orb_false_iff in Hx. destruct Hx as [Hx1 Hx2].
  rewrite (IH x H2 Hx2), andb_true_r. rewrite memb_app. apply negb_true_iff in H1. rewrite H1. unfold memb. cbn [existsb].
  rewrite Nat.eqb_sym, Hx1. reflexivity.
Qed.

Lemma tbl_ents1 : forall es pend x, tbl_ok es pend -> x <> 0 -> tbl_ok (ents1 es x) (remove_id x pend).
Proof.
  intros es pend x (T1 & T2 & T3 & T4) Hx. unfold tbl_ok. rewrite ids_ents1. repeat split.
  - destruct (memb x (ids es)) eqn:E; [rewrite app_nil_r; exact T1|]. apply nodupb_snoc; assumption.
  - destruct (memb x (ids es)); [rewrite app_nil_r; exact T2|]. rewrite memb_app, T2. unfold memb. cbn [existsb]. destruct (Nat.eqb_spec 0 x); [congruence | reflexivity].
  - destruct (Nat.eq_dec 0 x) as [E|E]; [congruence|]. rewrite (memb_remove_other 0 x pend E). exact T3.
  - apply forallb_forall. intros p Hp. unfold remove_id in Hp. apply filter_In in Hp. destruct Hp as [Hp Hne].
    rewrite forallb_forall in T4. specialize (T4 p Hp). apply negb_true_iff in Hne. apply Nat.eqb_neq in Hne.
    destruct (memb x (ids es)); [rewrite app_nil_r; exact T4|]. rewrite memb_app. apply negb_true_iff in T4. rewrite T4. unfold memb. cbn [existsb].
    destruct (Nat.eqb_spec p x); [congruence | reflexivity].
Qed.
Lemma ents1_nonempty : forall es x, ents1 es x <> [].
Proof.
  intros es x. unfold ents1. destruct (negb (memb x (ids es))) eqn:E.
  - destruct es; discriminate.
  - apply negb_false_iff in E. destruct es; [discriminate|]. unfold set_jp. discriminate.
Qed.
Lemma sp_ents1 : forall es x, forallb (fun e => negb (e_sp e)) es = true -> forallb (fun e => negb (e_sp e)) (ents1 es x) = true.
Proof.
  intros es x H. unfold ents1. destruct (negb (memb x (ids es))).
  - rewrite forallb_app, H. reflexivity.
  - unfold set_jp. rewrite forallb_forall in H |- *. intros e He. apply in_map_iff in He. destruct He as [e0 [<- H0]].
    destruct (e_id e0 =? x); [cbn [e_sp]|]; apply H; exact H0.
Qed.

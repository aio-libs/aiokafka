(* C07_client.v — the invariant [cinv] of one producer instance of model/C07_Txn.v, on every accepted trace and
   whatever the environment does; from it c07_no_write_outside_txn, c07_end_after_acks and
   c07_drain_only_registered (props/C07.v). *)
From Coq Require Import ZArith List Bool Arith Lia.
From Verif Require Import Imp TxnTable C16_TxnApi C07_Txn.
From Verif Require Export C07_step.
Import ListNotations.

(* the translated table (C16_TxnApi.trans): from which states a state is entered *)
Lemma trans_target s t u : trans s t = Some u -> u = t.
Proof. unfold trans. destruct (table s t); intros H; inversion H; reflexivity. Qed.
Lemma trans_in_txn s u : trans s IN_TXN = Some u -> s = READY.
Proof. destruct s; vm_compute; intros H; try discriminate; reflexivity. Qed.
Lemma trans_ready s u : trans s READY = Some u -> s = UNINIT \/ s = COMMITTING \/ s = ABORTING.
Proof. destruct s; vm_compute; intros H; try discriminate; auto. Qed.
Lemma trans_committing s u : trans s COMMITTING = Some u -> s = IN_TXN.
Proof. destruct s; vm_compute; intros H; try discriminate; reflexivity. Qed.
Lemma trans_aborting s u : trans s ABORTING = Some u -> s = IN_TXN \/ s = ABORTABLE.
Proof. destruct s; vm_compute; intros H; try discriminate; auto. Qed.

Lemma remn_In x y l : In y (remn x l) <-> In y l /\ y <> x.
Proof.
  unfold remn. rewrite filter_In. split; intros [A B]; split; auto.
  - intros E. subst. rewrite Nat.eqb_refl in B. discriminate.
  - destruct (Nat.eqb x y) eqn:E; [apply Nat.eqb_eq in E; congruence | reflexivity].
Qed.
Lemma addn_In x y l : In y (addn x l) <-> In y l \/ y = x.
Proof.
  unfold addn. destruct (memn x l) eqn:E.
  - apply memn_In in E. split; [auto | intros [H|H]; subst; auto].
  - rewrite in_app_iff. simpl. split; intros [H|H]; auto. destruct H; [subst; auto | contradiction].
Qed.
Lemma unionn_In y m : forall l, In y (unionn l m) <-> In y l \/ In y m.
Proof.
  induction m as [|x m IH]; intros l; simpl.
  - tauto.
  - rewrite IH, addn_In. intuition auto.
Qed.
Lemma list_eqb_incl l m : list_eqb l m = true -> incl l m /\ incl m l.
Proof.
  unfold list_eqb. intros H. apply andb_prop in H. destruct H as [H H2].
  apply andb_prop in H. destruct H as [_ H1].
  rewrite forallb_forall in H1, H2. split; intros x Hx; apply memn_In; auto.
Qed.

Lemma length_set_nth {A} (l : list A) : forall i c', length (set_nth i c' l) = length l.
Proof. induction l as [|y l IH]; intros [|i] c'; simpl; auto. Qed.

Lemma take_bid_some n q x r : take_bid n q = Some (x, r) ->
  In x q /\ bid x = n /\ (forall b, In b r -> In b q) /\ (forall b, In b q -> b = x \/ In b r).
Proof.
  revert x r. induction q as [|b q IH]; intros x r H; simpl in H; [discriminate|].
  destruct (Nat.eqb (bid b) n) eqn:E.
  - inversion H; subst. apply Nat.eqb_eq in E. repeat split; simpl; auto.
    intros b0 [H0|H0]; auto.
  - destruct (take_bid n q) as [[x0 r0]|] eqn:T; [|discriminate]. inversion H; subst.
    destruct (IH _ _ eq_refl) as (A & B & C & D). repeat split; simpl; auto.
    + intros b0 [H0|H0]; auto.
    + intros b0 [H0|H0]; auto. destruct (D _ H0); auto.
Qed.

Lemma take_bid_Forall (P : batch -> Prop) n q x r : take_bid n q = Some (x, r) -> Forall P q -> P x /\ Forall P r.
Proof. intros T F. destruct (take_bid_some _ _ _ _ T) as (T1 & _ & T3 & _). rewrite Forall_forall in *. auto. Qed.

Lemma take_bid_app n q d x r : take_bid n (q ++ d) = Some (x, r) ->
  (exists r1, take_bid n q = Some (x, r1)) \/ (take_bid n q = None /\ exists r2, take_bid n d = Some (x, r2)).
Proof.
  revert x r. induction q as [|b q IH]; intros x r H; simpl in *.
  - right. split; [reflexivity|]. eauto.
  - destruct (Nat.eqb (bid b) n) eqn:E.
    + inversion H; subst. left. eauto.
    + destruct (take_bid n (q ++ d)) as [[x0 r0]|] eqn:T; [|discriminate]. inversion H; subst.
      destruct (IH _ _ eq_refl) as [(r1 & A)|(A & r2 & B)].
      * left. rewrite A. eauto.
      * right. rewrite A. split; eauto.
Qed.

Lemma head_of_in p q h : head_of p q = Some h -> In h q /\ bpart h = p.
Proof.
  induction q as [|b q IH]; simpl; [discriminate|]. destruct (Nat.eqb (bpart b) p) eqn:E.
  - intros H. inversion H; subst. apply Nat.eqb_eq in E. auto.
  - intros H. destruct (IH H). auto.
Qed.

Definition same_batch (b b' : batch) : Prop :=
  bid b' = bid b /\ bpart b' = bpart b /\ btag b' = btag b /\ bitems b' = bitems b /\ bsent b' = bsent b.

(* [mark_app] changes the appended-flag of the batch that [take_bid] finds, and nothing else *)
Lemma mark_app_spec n q : forall b', In b' (mark_app n q) ->
  exists b, In b q /\ same_batch b b' /\ (bapp b' = bapp b \/ (exists r, take_bid n q = Some (b, r)) /\ bapp b' = true).
Proof.
  induction q as [|b q IH]; intros b' H; simpl in *; [contradiction|].
  destruct (Nat.eqb (bid b) n) eqn:E.
  - destruct H as [H|H]; [|exists b'; repeat split; auto]. exists b. subst b'. repeat split; eauto.
  - destruct H as [H|H]; [exists b'; repeat split; auto|]. destruct (IH _ H) as (b0 & A & B & [C|((r & C1) & C2)]).
    + exists b0. auto.
    + exists b0. rewrite C1. split; [auto|]. split; [exact B|]. right. eauto.
Qed.
Lemma mark_app_cover n q : forall b, In b q -> exists b', In b' (mark_app n q) /\ same_batch b b'.
Proof.
  induction q as [|b0 q IH]; intros b H; simpl in *; [contradiction|].
  destruct (Nat.eqb (bid b0) n) eqn:E.
  - destruct H as [H|H].
    + subst. eexists. split; [left; reflexivity|]. repeat split.
    + exists b. split; [right; exact H | repeat split].
  - destruct H as [H|H].
    + subst. exists b. split; [left; reflexivity | repeat split].
    + destruct (IH _ H) as (b' & A & B). exists b'. split; [right; exact A | exact B].
Qed.
Lemma mark_app_nil n q : mark_app n q = [] -> q = [].
Proof. destruct q; simpl; [auto|]. destruct (Nat.eqb (bid b) n); discriminate. Qed.

(* [snoc_item] replaces one batch of partition p, not yet drained, by itself with the record added *)
Lemma snoc_item_spec p n x q q' : snoc_item p n x q = Some q' ->
  (forall b', In b' q' -> In b' q \/ exists b, In b q /\ bpart b = p /\ bsent b = false /\
                                      b' = mkB (bid b) (bpart b) (btag b) (bitems b ++ [x]) false (bapp b)) /\
  (forall b, In b q -> exists b', In b' q' /\ bpart b' = bpart b /\ forall y, In y (bitems b) -> In y (bitems b')) /\
  (exists b', In b' q' /\ bpart b' = p /\ In x (bitems b')).
Proof.
  revert q'. induction q as [|b q IH]; intros q' H; simpl in H; [discriminate|].
  destruct (Nat.eqb (bpart b) p && negb (has_part_q p q)) eqn:E.
  - destruct (Nat.eqb (bid b) n && negb (bsent b)) eqn:E2; [|discriminate]. inversion H; subst; clear H.
    apply andb_prop in E. destruct E as [E _]. apply Nat.eqb_eq in E.
    apply andb_prop in E2. destruct E2 as [_ E2]. apply negb_true_iff in E2.
    split; [|split].
    + intros b' [H|H]; [|left; right; exact H]. right. exists b. subst b'. simpl. auto.
    + intros b0 [H|H].
      * subst b0. eexists. split; [left; reflexivity|]. simpl. split; [reflexivity|].
        intros y Hy. apply in_or_app. auto.
      * exists b0. split; [right; exact H|]. split; auto.
    + eexists. split; [left; reflexivity|]. simpl. split; [exact E|]. apply in_or_app. right. left. reflexivity.
  - destruct (snoc_item p n x q) as [r|] eqn:S; [|discriminate]. inversion H; subst; clear H.
    destruct (IH _ eq_refl) as (A & B & (b1 & C1 & C2 & C3)). split; [|split].
    + intros b' [H|H]; [left; left; exact H|]. destruct (A _ H) as [H1|(b0 & H1 & H2)].
      * left; right; exact H1.
      * right. exists b0. split; [right; exact H1 | exact H2].
    + intros b0 [H|H].
      * subst. exists b0. split; [left; reflexivity|]. auto.
      * destruct (B _ H) as (b' & H1 & H2). exists b'. split; [right; exact H1 | exact H2].
    + exists b1. split; [right; exact C1|]. auto.
Qed.

Definition bq (c : client) : list batch := queue c ++ inflight c ++ deadb c.

(* where the sender holds a batch: queued, in flight, or failed towards the application while its produce task
   may still send it *)
Inductive place := PQ | PI | PD.

(* a batch of instance c held at pl belongs to the current application transaction and holds accepted records;
   unless it is dead, what is marked appended was drained and counts in capp; what is in flight was drained;
   unless fatal_error has cleared the sets, its partition is registered (_txn_partitions) or, for a queued
   batch only, waits to be (_pending_txn_partitions): muting *)
Definition bok (c : client) (pl : place) (b : batch) : Prop :=
  btag b = kcur c /\
  (forall x, In x (bitems b) -> In (x, bpart b) (accepted c)) /\
  (pl <> PD -> bapp b = true -> bsent b = true /\ forall x, In x (bitems b) -> In (x, bpart b) (capp c)) /\
  (pl = PI -> bsent b = true) /\
  (cerr c = false -> In (bpart b) (txn_parts c) \/ pl = PQ /\ In (bpart b) (pend_parts c)).

(* ci_idle: in READY / UNINITIALIZED the sender holds no batch;
   ci_acc:  as long as no batch failed or was dropped (lostb), every accepted item is appended, in a queued or
            in-flight batch, or a pending offset entry *)
Record cinv (c : client) : Prop := {
  ci_idle : cst c = UNINIT \/ cst c = READY -> queue c = [] /\ inflight c = [] /\ deadb c = [];
  ci_q : Forall (bok c PQ) (queue c);
  ci_i : Forall (bok c PI) (inflight c);
  ci_d : Forall (bok c PD) (deadb c);
  ci_acc : lostb c = false -> forall x p, In (x, p) (accepted c) ->
           In (x, p) (capp c) \/
           (exists b, In b (queue c ++ inflight c) /\ bpart b = p /\ In x (bitems b)) \/
           (p = GROUPP /\ exists l, In l (pend_offs c) /\ In x l);
  ci_toc : forall x, In x (ctoc c) -> In (x, GROUPP) (capp c)
}.

Lemma cinv_client0 : cinv client0.
Proof. constructor; simpl; intros; try contradiction; auto. Qed.

Lemma bq_ok c b : cinv c -> In b (bq c) -> exists pl, bok c pl b.
Proof.
  intros [_ Q I D _ _] H. unfold bq in H. rewrite !in_app_iff in H. rewrite Forall_forall in Q, I, D.
  destruct H as [H|[H|H]]; eauto.
Qed.

Lemma sent_registered c b : cinv c -> cerr c = false -> In b (inflight c ++ deadb c) -> In (bpart b) (txn_parts c).
Proof.
  intros [_ _ I D _ _] E H. rewrite Forall_forall in I, D. apply in_app_or in H.
  destruct H as [H|H]; [destruct (I b H) as (_ & _ & _ & _ & R) | destruct (D b H) as (_ & _ & _ & _ & R)];
    destruct (R E) as [K|(K & _)]; auto; discriminate.
Qed.

Lemma bok_mono c c' pl l :
  kcur c' = kcur c -> incl (accepted c) (accepted c') -> incl (capp c) (capp c') ->
  (cerr c' = false -> cerr c = false /\ incl (txn_parts c) (txn_parts c') /\
                      forall p, In p (pend_parts c) -> In p (txn_parts c') \/ In p (pend_parts c')) ->
  Forall (bok c pl) l -> Forall (bok c' pl) l.
Proof.
  intros Hk Ha Hc Hr. apply Forall_impl. intros b (T & A & P & S & R).
  split; [congruence|]. split; [auto|]. split; [|split; [exact S|]].
  - intros N B. destruct (P N B) as (P1 & P2). auto.
  - intros E. destruct (Hr E) as (E1 & E2 & E3). destruct (R E1) as [K|(K1 & K2)]; [auto|].
    destruct (E3 _ K2); auto.
Qed.

(* an update that touches none of the fields the invariant reads; the state may move to one that is neither
   READY nor UNINITIALIZED and the dead batches may be dropped *)
Lemma cinv_same c c' :
  cinv c ->
  (cst c' = UNINIT \/ cst c' = READY -> cst c = UNINIT \/ cst c = READY) ->
  queue c' = queue c -> inflight c' = inflight c -> deadb c' = deadb c \/ deadb c' = [] ->
  kcur c' = kcur c -> accepted c' = accepted c -> capp c' = capp c -> pend_offs c' = pend_offs c ->
  lostb c' = lostb c -> ctoc c' = ctoc c -> cerr c' = cerr c -> txn_parts c' = txn_parts c ->
  pend_parts c' = pend_parts c -> cinv c'.
Proof.
  intros [A Q I D F G] H1 H2 H3 H4 H5 H6 H7 H8 H9 H10 H11 H12 H13.
  assert (M : forall pl l, Forall (bok c pl) l -> Forall (bok c' pl) l).
  { intros pl l. apply bok_mono; rewrite ?H6, ?H7, ?H11, ?H12, ?H13; auto using incl_refl. }
  constructor; rewrite ?H2, ?H3, ?H6, ?H7, ?H8, ?H9, ?H10; auto.
  - intros K. destruct (A (H1 K)) as (A1 & A2 & A3). destruct H4 as [H4|H4]; rewrite H4; auto.
  - destruct H4 as [-> | ->]; auto.
Qed.

Lemma cinv_new_txn c : cinv c -> cst c = READY -> cinv (new_txn c IN_TXN).
Proof.
  intros [A Q I D F G] St. destruct (A (or_intror St)) as (Qe & Ie & _).
  constructor; simpl; rewrite ?Qe, ?Ie; auto.
Qed.

Lemma cinv_accept_new c x p b :
  cinv c -> cst c = IN_TXN ->
  cinv (set_queue (set_parts (set_accepted c (accepted c ++ [(x, p)])) (txn_parts c)
                             (if memn p (txn_parts c) || memn p (pend_parts c) then pend_parts c
                              else pend_parts c ++ [p]))
                  (queue c ++ [mkB b p (kcur c) [x] false false])).
Proof.
  intros [A Q I D F G] S. set (c1 := set_parts _ _ _).
  assert (M : forall pl l, Forall (bok c pl) l -> Forall (bok c1 pl) l).
  { intros pl l. apply bok_mono; simpl; auto using incl_refl, incl_appl.
    intros E. split; [exact E|]. split; [apply incl_refl|]. intros p0 H. right.
    destruct (_ || _); [exact H | apply in_or_app; auto]. }
  constructor; simpl; auto.
  - rewrite S. intros [H|H]; discriminate.
  - apply Forall_app. split; [exact (M _ _ Q)|]. constructor; [|constructor].
    split; [reflexivity|]. split; [|split; [discriminate|split; [discriminate|]]]; simpl.
    + intros y [<-|[]]. apply in_or_app. right. left. reflexivity.
    + intros _. destruct (memn p (txn_parts c)) eqn:M1; simpl.
      * left. apply memn_In. exact M1.
      * right. split; [reflexivity|].
        destruct (memn p (pend_parts c)) eqn:M2; [apply memn_In; exact M2 | apply in_or_app; simpl; auto].
  - exact (M _ _ I).
  - exact (M _ _ D).
  - intros L y q Hy. apply in_app_or in Hy. destruct Hy as [Hy|Hy].
    + destruct (F L _ _ Hy) as [H|[(b0 & H1 & H2 & H3)|H]]; auto.
      right. left. exists b0. split; [|auto]. rewrite <- app_assoc. apply in_app_or in H1.
      destruct H1 as [H1|H1]; apply in_or_app; auto. right. right. exact H1.
    + destruct Hy as [Hy|[]]. inversion Hy; subst. right. left. eexists. split.
      * rewrite <- app_assoc. apply in_or_app. right. left. reflexivity.
      * simpl. auto.
Qed.

Lemma cinv_accept_old c x p n q :
  cinv c -> cst c = IN_TXN -> snoc_item p n x (queue c) = Some q ->
  cinv (set_queue (set_accepted c (accepted c ++ [(x, p)])) q).
Proof.
  intros [A Q I D F G] S SN.
  destruct (snoc_item_spec _ _ _ _ _ SN) as (S1 & S2 & (bx & S3 & S4 & S5)).
  set (c1 := set_accepted _ _).
  assert (M : forall pl l, Forall (bok c pl) l -> Forall (bok c1 pl) l).
  { intros pl l. apply bok_mono; simpl; auto using incl_refl, incl_appl. }
  constructor; simpl; auto.
  - rewrite S. intros [H|H]; discriminate.
  - apply Forall_forall. intros b' H.
    destruct (S1 _ H) as [H1|(b1 & H1 & Hp & Hs & ->)]; [exact (Forall_In _ _ _ (M _ _ Q) H1)|].
    destruct (Forall_In _ _ _ Q H1) as (T & Ac & P & _ & R).
    split; [exact T|]. split; [|split; [|split; [discriminate | exact R]]]; simpl.
    + intros y Hy. apply in_app_or in Hy. apply in_or_app. destruct Hy as [Hy|[<-|[]]]; [left; auto|].
      right. left. congruence.
    + (* the batch that takes the record was never drained, hence never appended *)
      intros N B. destruct (P N B) as (P1 & _). congruence.
  - exact (M _ _ I).
  - exact (M _ _ D).
  - intros L y r Hy. apply in_app_or in Hy. destruct Hy as [Hy|Hy].
    + destruct (F L _ _ Hy) as [H|[(b0 & H1 & H2 & H3)|H]]; auto.
      right. left. apply in_app_or in H1. destruct H1 as [H1|H1].
      * destruct (S2 _ H1) as (b' & T1 & T2 & T3). exists b'. split; [apply in_or_app; auto|].
        split; [congruence | auto].
      * exists b0. split; [apply in_or_app; auto | auto].
    + destruct Hy as [Hy|[]]. inversion Hy; subst. right. left. exists bx.
      split; [apply in_or_app; auto | auto].
Qed.

Lemma cinv_offsets c items :
  cinv c -> cst c = IN_TXN ->
  cinv (set_accepted (set_offs c (pend_offs c ++ [items])) (accepted c ++ pairs GROUPP items)).
Proof.
  intros [A Q I D F G] S.
  constructor; simpl; auto; try solve [apply (bok_mono c); simpl; auto using incl_refl, incl_appl].
  intros L y q Hy. apply in_app_or in Hy. destruct Hy as [Hy|Hy].
  - destruct (F L _ _ Hy) as [H|[H|(H1 & l & H2 & H3)]]; auto.
    right. right. split; auto. exists l. split; [apply in_or_app; auto | auto].
  - unfold pairs in Hy. apply in_map_iff in Hy. destruct Hy as (z & Hz & Hi). inversion Hz; subst.
    right. right. split; auto. exists items. split; [apply in_or_app; right; left; reflexivity | auto].
Qed.

Lemma cinv_complete c :
  cinv c -> queue c = [] -> inflight c = [] -> pend_offs c = [] ->
  cinv (set_deadb (set_grp (set_parts (set_cst c READY) [] (pend_parts c)) false) []).
Proof.
  intros [A Q I D F G] Qe Ie Po.
  constructor; simpl; rewrite ?Qe, ?Ie; auto.
  intros L x p H. destruct (F L _ _ H) as [H1|[(b & H1 & _)|(_ & l & H1 & _)]]; auto.
  - rewrite Qe, Ie in H1. destruct H1.
  - rewrite Po in H1. destruct H1.
Qed.

(* error_transaction; the queued batches of the partitions still waiting for AddPartitionsToTxn have been
   failed before *)
Lemma cinv_err c : cinv c -> (forall b, In b (queue c) -> ~ In (bpart b) (pend_parts c)) -> cinv (c_err c ABORTABLE).
Proof.
  intros [A Q I D F G] Mu.
  assert (M : forall pl l, (pl = PQ -> forall b, In b l -> ~ In (bpart b) (pend_parts c)) ->
              Forall (bok c pl) l -> Forall (bok (c_err c ABORTABLE) pl) l).
  { intros pl l N H. apply Forall_forall. intros b Hb. destruct (Forall_In _ _ _ H Hb) as (T & Ac & P & S & R).
    refine (conj T (conj Ac (conj P (conj S _)))). intros E.
    destruct (R E) as [K|(K1 & K2)]; [auto | destruct (N K1 b Hb K2)]. }
  constructor; unfold c_err; simpl; auto; try (apply M; [discriminate | assumption]).
  - intros [H|H]; discriminate.
  - intros H; discriminate.
Qed.

Lemma cinv_clear c : cinv c -> cinv (c_clear c FATAL).
Proof.
  intros [A Q I D F G].
  constructor; unfold c_clear; simpl; auto; try solve [apply (bok_mono c); simpl; auto using incl_refl; discriminate].
  - intros [H|H]; discriminate.
  - intros H; discriminate.
Qed.

Lemma cinv_part_added c p :
  cinv c -> cinv (set_parts c (addn p (txn_parts c)) (remn p (pend_parts c))).
Proof.
  intros [A Q I D F G]. set (c1 := set_parts _ _ _).
  assert (M : forall pl l, Forall (bok c pl) l -> Forall (bok c1 pl) l).
  { intros pl l. apply bok_mono; simpl; auto using incl_refl. intros E. split; [exact E|]. split.
    - intros q Hq. apply addn_In. auto.
    - intros q Hq. destruct (Nat.eq_dec q p) as [->|N]; [left; apply addn_In | right; apply remn_In]; auto. }
  constructor; auto.
Qed.

Lemma cinv_off_committed c x items rest :
  cinv c -> pend_offs c = items :: rest -> In x (ctoc c) ->
  cinv (set_offs c (if is_niln (remn x items) then rest else remn x items :: rest)).
Proof.
  intros [A Q I D F G] P T.
  constructor; simpl; auto.
  intros L y q Hy. destruct (F L _ _ Hy) as [H|[H|(H1 & l & H2 & H3)]]; auto.
  subst q. rewrite P in H2. destruct H2 as [H2|H2].
  - subst l. destruct (Nat.eq_dec y x) as [Eq|Ne].
    + subst y. left. apply G. exact T.
    + right. right. split; auto. exists (remn x items).
      assert (Hr : In y (remn x items)) by (apply remn_In; auto).
      destruct (is_niln (remn x items)) eqn:N.
      * apply is_niln_nil in N. rewrite N in Hr. destruct Hr.
      * split; [left; reflexivity | exact Hr].
  - right. right. split; auto. exists l. split; [|exact H3].
    destruct (is_niln (remn x items)); [exact H2 | right; exact H2].
Qed.

Lemma cinv_drain c n x q :
  cinv c -> take_bid n (queue c) = Some (x, q) -> ~ In (bpart x) (pend_parts c) ->
  cinv (set_inflight (set_queue c q) (inflight c ++ [mkB (bid x) (bpart x) (btag x) (bitems x) true (bapp x)])).
Proof.
  intros [A Q I D F G] T Mu. destruct (take_bid_some _ _ _ _ T) as (T1 & T2 & T3 & T4).
  destruct (take_bid_Forall _ _ _ _ _ T Q) as ((Xt & Xa & Xp & _ & Xr) & Qr).
  constructor; simpl; auto.
  - intros H. destruct (A H) as (A1 & _). rewrite A1 in T1. destruct T1.
  - apply Forall_app. split; [exact I|]. constructor; [|constructor].
    refine (conj Xt (conj Xa (conj _ (conj (fun _ => eq_refl) _)))); simpl.
    + intros _ B. split; [reflexivity|]. apply (Xp ltac:(discriminate) B).
    + intros E. destruct (Xr E) as [K|(_ & K)]; [auto | contradiction].
  - intros L y p Hy. destruct (F L _ _ Hy) as [H|[(b0 & H1 & H2 & H3)|H]]; auto.
    right. left. apply in_app_or in H1. destruct H1 as [H1|H1].
    + destruct (T4 _ H1) as [K|K].
      * subst b0. exists (mkB (bid x) (bpart x) (btag x) (bitems x) true (bapp x)). split; [|auto].
        rewrite !in_app_iff. simpl. auto.
      * exists b0. split; [|auto]. rewrite !in_app_iff. auto.
    + exists b0. split; [|auto]. rewrite !in_app_iff. auto.
Qed.

Lemma cinv_ok c n x f :
  cinv c -> take_bid n (inflight c) = Some (x, f) -> bapp x = true -> cinv (set_inflight c f).
Proof.
  intros [A Q I D F G] T Ha. destruct (take_bid_some _ _ _ _ T) as (T1 & T2 & T3 & T4).
  destruct (take_bid_Forall _ _ _ _ _ T I) as ((_ & _ & Xp & _) & Ir).
  constructor; simpl; auto.
  - intros H. destruct (A H) as (_ & A2 & _). rewrite A2 in T1. destruct T1.
  - intros L y p Hy. destruct (F L _ _ Hy) as [H|[(b0 & H1 & H2 & H3)|H]]; auto.
    apply in_app_or in H1. destruct H1 as [H1|H1].
    + right. left. exists b0. split; [apply in_or_app; auto | auto].
    + destruct (T4 _ H1) as [K|K].
      * subst b0. left. subst p. apply (Xp ltac:(discriminate) Ha). exact H3.
      * right. left. exists b0. split; [apply in_or_app; auto | auto].
Qed.

Lemma cinv_retry c n x f :
  cinv c -> take_bid n (inflight c) = Some (x, f) -> cinv (set_queue (set_inflight c f) (x :: queue c)).
Proof.
  intros [A Q I D F G] T. destruct (take_bid_some _ _ _ _ T) as (T1 & T2 & T3 & T4).
  destruct (take_bid_Forall _ _ _ _ _ T I) as ((Xt & Xa & Xp & _ & Xr) & Ir).
  constructor; simpl; auto.
  - intros H. destruct (A H) as (_ & A2 & _). rewrite A2 in T1. destruct T1.
  - constructor; [|exact Q]. refine (conj Xt (conj Xa (conj _ (conj _ _)))); [|discriminate|].
    + intros _. apply Xp. discriminate.
    + intros E. destruct (Xr E) as [K|(K & _)]; [auto | discriminate].
  - intros L y p Hy. destruct (F L _ _ Hy) as [H|[(b0 & H1 & H2 & H3)|H]]; auto.
    right. left. exists b0. split; [|auto]. apply in_app_or in H1. destruct H1 as [H1|H1].
    + right. apply in_or_app. auto.
    + destruct (T4 _ H1) as [K|K]; [left; auto | right; apply in_or_app; auto].
Qed.

Lemma cinv_fail_inflight c n x f :
  cinv c -> take_bid n (inflight c) = Some (x, f) ->
  cinv (set_lostb (set_deadb (set_inflight c f) (deadb c ++ [x])) true).
Proof.
  intros [A Q I D F G] T. destruct (take_bid_some _ _ _ _ T) as (T1 & _).
  destruct (take_bid_Forall _ _ _ _ _ T I) as ((Xt & Xa & _ & _ & Xr) & Ir).
  constructor; simpl; auto.
  - intros H. destruct (A H) as (_ & A2 & _). rewrite A2 in T1. destruct T1.
  - apply Forall_app. split; [exact D|]. constructor; [|constructor].
    refine (conj Xt (conj Xa (conj _ (conj _ _)))); [intros N; destruct (N eq_refl) | discriminate |].
    intros E. destruct (Xr E) as [K|(K & _)]; [auto | discriminate].
  - intros H; discriminate.
Qed.

Lemma cinv_fail_queue c n x q :
  cinv c -> take_bid n (queue c) = Some (x, q) -> cinv (set_lostb (set_queue c q) true).
Proof.
  intros [A Q I D F G] T. destruct (take_bid_some _ _ _ _ T) as (T1 & _).
  destruct (take_bid_Forall _ _ _ _ _ T Q) as (_ & Qr).
  constructor; simpl; auto.
  - intros H. destruct (A H) as (A1 & _). rewrite A1 in T1. destruct T1.
  - intros H; discriminate.
Qed.

Lemma cinv_toc c items sl :
  cinv c -> cinv (set_ctoc (set_capp (set_slot c sl) (capp c ++ pairs GROUPP items)) items).
Proof.
  intros [A Q I D F G].
  constructor; simpl; auto; try solve [apply (bok_mono c); simpl; auto using incl_refl, incl_appl].
  - intros Lb y p Hy. destruct (F Lb _ _ Hy) as [H|[H|H]]; auto. left. apply in_or_app. auto.
  - intros y Hy. apply in_or_app. right. unfold pairs. apply in_map_iff. exists y. auto.
Qed.

Lemma cinv_produce c n x r :
  cinv c -> take_bid n (inflight c ++ (match cst c with FATAL => deadb c | _ => [] end)) = Some (x, r) ->
  cinv (set_capp (set_inflight c (mark_app n (inflight c))) (capp c ++ pairs (bpart x) (bitems x))).
Proof.
  intros [A Q I D F G] T.
  assert (M : forall pl l, Forall (bok c pl) l ->
              Forall (bok (set_capp c (capp c ++ pairs (bpart x) (bitems x))) pl) l).
  { intros pl l. apply bok_mono; simpl; auto using incl_refl, incl_appl. }
  constructor; simpl; auto.
  - intros H. destruct (A H) as (A1 & A2 & A3). rewrite A2. simpl. auto.
  - exact (M _ _ Q).
  - apply Forall_forall. intros b' H.
    destruct (mark_app_spec _ _ _ H) as (b & Hb & (K2 & K3 & K4 & K5 & K6) & Ap).
    destruct (Forall_In _ _ _ (M _ _ I) Hb) as (Bt & Ba & Bp & Bs & Br).
    unfold bok. rewrite K3, K4, K5, K6. refine (conj Bt (conj Ba (conj _ (conj Bs Br)))).
    destruct Ap as [Ap|((r1 & Ap) & _)]; [rewrite Ap; exact Bp|].
    (* the batch that the leader has appended *)
    intros _ _. split; [exact (Bs eq_refl)|]. intros y Hy.
    destruct (take_bid_app _ _ _ _ _ T) as [(r2 & T1)|(T1 & _)]; [|congruence].
    rewrite Ap in T1. injection T1 as -> _. apply in_or_app. right. apply in_map_iff. exists y. auto.
  - exact (M _ _ D).
  - intros L y p Hy. destruct (F L _ _ Hy) as [H|[(b0 & H1 & H2 & H3)|H]]; auto.
    + left. apply in_or_app. auto.
    + right. left. apply in_app_or in H1. destruct H1 as [H1|H1].
      * exists b0. split; [apply in_or_app; auto | auto].
      * destruct (mark_app_cover n _ _ H1) as (b' & M1 & (M2 & M3 & M4 & M5 & M6)).
        exists b'. split; [apply in_or_app; auto|]. split; [congruence | rewrite M5; auto].
  - intros y Hy. apply in_or_app. left. auto.
Qed.

Lemma cstep_cinv i en c e c' en' o : cstep i en c e c' en' o -> cinv c -> cinv c'.
Proof.
  intros CS CI.
  (* the fields the invariant reads are unchanged, or only the state moves, to one that is not idle *)
  destruct CS; try solve [apply (cinv_same c); auto; intros [K|K]; discriminate].
  - apply cinv_new_txn; assumption.
  - apply cinv_accept_new; assumption.
  - eapply cinv_accept_old; eassumption.
  - apply cinv_offsets; assumption.
  - apply cinv_complete; assumption.
  - apply cinv_err; assumption.
  - apply cinv_clear, CI.
  - apply cinv_part_added, CI.
  - eapply cinv_off_committed; eassumption.
  - eapply cinv_drain; eassumption.
  - eapply cinv_ok; eassumption.
  - eapply cinv_retry; eassumption.
  - eapply cinv_fail_inflight; eassumption.
  - eapply cinv_fail_queue; eassumption.
  - apply cinv_toc, CI.
  - eapply cinv_produce; eassumption.
Qed.

Definition gcinv (s : gstate) : Prop := Forall cinv (clients s).

Lemma run_gcinv n tr s : run (g0 n) tr = Some s -> gcinv s.
Proof. apply (run_g0_clients cinv cstep_cinv cinv_client0). Qed.

Lemma produce_in_txn s i b s' :
  gcinv s -> step s (RProduce i b VApplied) = Some s' ->
  exists c x, nth_error (clients s) i = Some c /\ bid x = b /\ In x (bq c) /\
              btag x = kcur c /\ cst c <> READY /\ cst c <> UNINIT /\
              (forall y, In y (bitems x) -> In (y, bpart x) (accepted c)) /\
              glog (genv s') = glog (genv s) ++ [(bpart x, Data (cep c) (i, kcur c) (bitems x))].
Proof.
  intros G H. destruct (step_inv _ _ _ H) as [? ES | j c c' en' o Hc _ CS]; [inversion ES|]. cstep_cases CS.
  pose proof (Forall_nth_error _ _ _ _ G Hc) as Ci.
  destruct (take_bid_some _ _ _ _ Tk) as (T1 & T2 & _).
  assert (Xin : In x (bq c)).
  { unfold bq. rewrite !in_app_iff in *. destruct T1 as [T1|T1]; auto.
    destruct (cst c); simpl in T1; try contradiction; auto. }
  destruct (bq_ok _ _ Ci Xin) as (pl & B1 & B3 & _).
  assert (Busy : ~ (cst c = UNINIT \/ cst c = READY)).
  { intros K. destruct (ci_idle _ Ci K) as (A1 & A2 & A3). unfold bq in Xin. rewrite A1, A2, A3 in Xin. destruct Xin. }
  exists c, x. repeat split; auto. simpl. rewrite B1. reflexivity.
Qed.

Lemma endtxn_after_acks s i commit v s' :
  gcinv s -> step s (REndTxn i commit v) = Some s' ->
  exists c, get s i = Some c /\ queue c = [] /\ inflight c = [] /\ pend_parts c = [] /\ pend_offs c = [] /\
            (lostb c = false -> incl (accepted c) (capp c)).
Proof.
  intros G H. destruct (step_inv _ _ _ H) as [? ES | j c c' en' o Hc Al CS]; [inversion ES|].
  assert (K : j = i /\ end_ready c commit) by (cstep_cases CS; auto).
  destruct K as (-> & _ & Qe & Ie & Pp & Po & _). destruct Al as [Al|[]].
  exists c. split; [apply get_alive; assumption|]. repeat split; auto.
  intros L [x p] A. destruct (ci_acc _ (Forall_nth_error _ _ _ _ G Hc) L _ _ A) as [K|[(b & K1 & _)|(_ & l & K1 & _)]].
  - exact K.
  - rewrite Qe, Ie in K1. destruct K1.
  - rewrite Po in K1. destruct K1.
Qed.

Lemma drain_registered s i b s' :
  gcinv s -> step s (SDrain i b) = Some s' ->
  exists c x, get s i = Some c /\ In x (queue c) /\ bid x = b /\
              ~ In (bpart x) (pend_parts c) /\ (cerr c = false -> In (bpart x) (txn_parts c)).
Proof.
  intros G H. destruct (step_inv _ _ _ H) as [? ES | j c c' en' o Hc [Al|[]] CS]; [inversion ES|]. cstep_cases CS.
  destruct (take_bid_some _ _ _ _ Tk) as (T1 & T2 & _).
  exists c, x. split; [apply get_alive; assumption|]. repeat split; auto.
  intros E. destruct (Forall_In _ _ _ (ci_q _ (Forall_nth_error _ _ _ _ G Hc)) T1) as (_ & _ & _ & _ & R).
  destruct (R E) as [K|(_ & K)]; [exact K | contradiction].
Qed.

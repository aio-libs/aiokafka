(* C19_tasks_proof.v — the static condition [step_safe] is sufficient for a close procedure to run to
   its end from every task state of the model's state space, and for a cancel-and-join step it is
   necessary too (for a join without cancel it is not: a guarded bare wait on a slot whose routine has
   no await point gets past every state although the slot may hold a failed task). *)
From Coq Require Import List Bool Arith Lia.
From Verif Require Import C19_Tasks.
Import ListNotations.

Lemma forallb_nth_error {A} (p : A -> bool) l i x :
  forallb p l = true -> nth_error l i = Some x -> p x = true.
Proof.
  intros H Hn. rewrite forallb_forall in H. apply H. eapply nth_error_In; eauto.
Qed.

Lemma forallb_false_witness {A} (p : A -> bool) l :
  forallb p l = false -> exists i x, nth_error l i = Some x /\ p x = false /\ i < length l.
Proof.
  induction l as [|a l IH]; cbn [forallb]; intros H; [discriminate|].
  destruct (p a) eqn:Hp.
  - cbn in H. destruct (IH H) as (i & x & Hn & Hx & Hl). exists (S i), x. cbn. repeat split; auto; lia.
  - exists 0, a. cbn. repeat split; auto; lia.
Qed.

Lemma cancel_parked r t g st i fails c : nth_error (r_points r) i = Some c ->
  exec_member r (CancelAwait t g st) (TParked i fails) =
  await_fin st match c with PNormal => FOk | PCancelled => FCancelled | PSwallow => FNever end.
Proof. intros H. cbn. rewrite andb_false_r, H. destruct c; reflexivity. Qed.

Lemma member_safe slots stp t s :
  step_safe slots stp = true -> step_slot stp = Some t ->
  state_ok (nth t slots default_slot) s = true ->
  exec_member (s_routine (nth t slots default_slot)) stp s = Continue.
Proof.
  intros Hs Ht Hok.
  destruct stp as [t' g st|t' g st|tag|tag]; try discriminate; injection Ht as ->;
    cbn [step_safe] in Hs; apply andb_prop in Hs as [Hs Hst];
    destruct (nth t slots default_slot) as [[pts ca] mu mc mf]; unfold all_points in *; simpl in *.
  - (* cancel and join *)
    apply andb_prop in Hs as [_ Hns].
    destruct s as [|i fails| | |]; simpl in *.
    + (* not started: ends cancelled *)
      rewrite andb_false_r. subst mu. destruct st; try reflexivity.
      destruct (forallb is_normal pts); discriminate.
    + (* parked: no point swallows, and under a bare join every point ends the task normally *)
      apply andb_prop in Hok as [Hi _]. apply Nat.ltb_lt, nth_error_Some in Hi.
      destruct (nth_error pts i) as [c|] eqn:Hn; [|congruence].
      rewrite andb_false_r. pose proof (forallb_nth_error _ _ _ _ Hns Hn) as Hc.
      destruct c; try discriminate; [reflexivity|].
      destruct st; try reflexivity.
      destruct (forallb is_normal pts) eqn:Hnm; [|discriminate].
      discriminate (forallb_nth_error _ _ _ _ Hnm Hn).
    + destruct (g && true); reflexivity.
    + (* failed: skipped by the guard, or absorbed by gather *)
      subst mf. destruct g; [reflexivity|]. destruct st; try reflexivity; simpl in Hst.
      * rewrite !andb_false_r in Hst. discriminate.
      * discriminate.
    + (* cancelled earlier: skipped by the guard, or absorbed *)
      subst mc. destruct g; [reflexivity|]. destruct st; try reflexivity; simpl in Hst.
      rewrite andb_false_r in Hst. discriminate.
  - (* join without cancelling *)
    destruct s as [|i fails| | |]; simpl in *.
    + rewrite andb_false_r. reflexivity.
    + rewrite andb_false_r. destruct fails; [|reflexivity].
      apply andb_prop in Hok as [_ Hf]. simpl in Hf. subst mf.
      destruct st; try reflexivity; discriminate.
    + destruct (g && true); reflexivity.
    + subst mf. destruct g; [reflexivity|]. destruct st; try reflexivity; discriminate.
    + subst mc. destruct g; [reflexivity|]. destruct st; try reflexivity.
      simpl in Hst. rewrite andb_false_r in Hst. discriminate.
Qed.

Lemma members_safe slots stp t ms :
  step_safe slots stp = true -> step_slot stp = Some t ->
  forallb (state_ok (nth t slots default_slot)) ms = true ->
  exec_members (s_routine (nth t slots default_slot)) stp ms = Continue.
Proof.
  intros Hs Ht. induction ms as [|s ms IH]; cbn [exec_members forallb]; intros H; [reflexivity|].
  apply andb_prop in H as [H1 H2]. rewrite (member_safe _ _ _ _ Hs Ht H1). auto.
Qed.

Lemma env_ok_nth slots : forall env t, env_ok slots env = true -> t < length slots ->
  forallb (state_ok (nth t slots default_slot)) (nth t env []) = true.
Proof.
  induction slots as [|sl slots IH]; intros env t H Hl; [cbn in Hl; lia|].
  destruct env as [|ms env]; [discriminate|]. cbn [env_ok] in H. apply andb_prop in H as [H1 H2].
  destruct t; cbn [nth]; [exact H1|]. apply IH; [exact H2|cbn in Hl; lia].
Qed.

Lemma step_safe_slot_lt slots stp t :
  step_safe slots stp = true -> step_slot stp = Some t -> t < length slots.
Proof.
  destruct stp as [t' g st|t' g st|tag|tag]; cbn [step_slot]; intros Hs Ht; try discriminate;
    injection Ht as ->; cbn [step_safe] in Hs.
  - apply andb_prop in Hs as [Hs _]. apply andb_prop in Hs as [Hs _]. now apply Nat.ltb_lt.
  - apply andb_prop in Hs as [Hs _]. now apply Nat.ltb_lt.
Qed.

Lemma step_safe_continue slots env stp :
  step_safe slots stp = true -> env_ok slots env = true -> exec_step slots env stp = Continue.
Proof.
  intros Hs He. unfold exec_step. destruct (step_slot stp) as [t|] eqn:Ht; [|reflexivity].
  apply members_safe; auto. apply env_ok_nth; auto. eapply step_safe_slot_lt; eauto.
Qed.

Theorem safe_completes slots env prog :
  prog_safe slots prog = true -> env_ok slots env = true -> run slots env prog = Completed.
Proof.
  unfold run, prog_safe. generalize 0 as k.
  induction prog as [|stp prog IH]; intros k Hs He; [reflexivity|].
  cbn [forallb] in Hs. apply andb_prop in Hs as [H1 H2].
  cbn [run_from]. rewrite (step_safe_continue _ _ _ H1 He). apply IH; auto.
Qed.

(* the environment of [n] slots in which slot [t] holds the tasks [ms] and the other slots none *)
Fixpoint env_with (n t : nat) (ms : list tstate) : list (list tstate) :=
  match n with
  | O => []
  | S n' => match t with
            | O => ms :: env_with n' (S n') []    (* S n' is out of range: the rest stays empty *)
            | S t' => [] :: env_with n' t' ms
            end
  end.

Lemma env_with_ok slots : forall t ms,
  (t < length slots -> forallb (state_ok (nth t slots default_slot)) ms = true) ->
  env_ok slots (env_with (length slots) t ms) = true.
Proof.
  induction slots as [|sl slots IH]; intros t ms Hm; [reflexivity|].
  cbn [length env_with]. destruct t; cbn [env_ok forallb andb].
  - cbn [length nth] in Hm. rewrite (Hm (Nat.lt_0_succ _)). apply IH. lia.
  - apply IH. intros Hl. apply Hm. cbn [length]. lia.
Qed.

Lemma env_with_nth n : forall t ms, t < n -> nth t (env_with n t ms) [] = ms.
Proof.
  induction n as [|n IH]; intros t ms Hl; [lia|].
  cbn [env_with]. destruct t; [reflexivity|]. cbn [nth]. apply IH. lia.
Qed.

(* some point fails [p], and a cancellation delivered there is not absorbed: a task parked there *)
Lemma parked_witness sl t g st p :
  all_points p (s_routine sl) = false ->
  (forall c, p c = false ->
     await_fin st match c with PNormal => FOk | PCancelled => FCancelled | PSwallow => FNever end
     <> Continue) ->
  exists s, state_ok sl s = true /\ exec_member (s_routine sl) (CancelAwait t g st) s <> Continue.
Proof.
  intros Hp Hbad. destruct (forallb_false_witness _ _ Hp) as (i & c & Hi & Hc & Hil).
  exists (TParked i false). split.
  - simpl. apply Nat.ltb_lt in Hil. rewrite Hil. reflexivity.
  - rewrite (cancel_parked _ _ _ _ _ _ _ Hi). auto.
Qed.

(* necessity: an unsafe step over an existing slot has a task state, inside the state space, at which
   the procedure does not get past it *)
Lemma unsafe_cancel_await_member slots t g st :
  t < length slots -> step_safe slots (CancelAwait t g st) = false ->
  exists s, state_ok (nth t slots default_slot) s = true /\
            exec_member (s_routine (nth t slots default_slot)) (CancelAwait t g st) s <> Continue.
Proof.
  intros Hl Hs. cbn [step_safe] in Hs. rewrite (proj2 (Nat.ltb_lt _ _) Hl) in Hs.
  generalize dependent (nth t slots default_slot). intros sl Hs.
  destruct (all_points not_swallow (s_routine sl)) eqn:Hns.
  2: { apply (parked_witness _ _ _ _ _ Hns). intros [] Hc; try discriminate Hc. destruct st; discriminate. }
  destruct st; simpl in Hs; [| |discriminate].
  - (* bare: the first of the four conditions that fails *)
    destruct (all_points is_normal (s_routine sl)) eqn:Hn.
    2: { apply (parked_witness _ _ _ _ _ Hn). intros [] Hc; discriminate. }
    destruct (s_may_unstarted sl) eqn:Hmu.
    { exists TUnstarted. simpl. rewrite andb_false_r. split; [exact Hmu|discriminate]. }
    destruct g; [discriminate|]. simpl in Hs.
    destruct (s_may_cancelled sl) eqn:Hmc.
    { exists TDoneCancelled. split; [exact Hmc|discriminate]. }
    apply negb_false_iff in Hs. exists TDoneExc. split; [exact Hs|discriminate].
  - (* catch *)
    destruct g; [discriminate|]. apply negb_false_iff in Hs.
    exists TDoneExc. split; [exact Hs|discriminate].
Qed.

(* so for a cancel-and-join the static condition says exactly that the procedure gets past every
   admissible state of a task in the slot *)
Lemma cancel_await_safe_iff slots t g st : t < length slots ->
  (step_safe slots (CancelAwait t g st) = true <->
   forall s, state_ok (nth t slots default_slot) s = true ->
             exec_member (s_routine (nth t slots default_slot)) (CancelAwait t g st) s = Continue).
Proof.
  intros Hl. split.
  - intros Hs s. apply (member_safe _ _ _ _ Hs eq_refl).
  - intros H. destruct (step_safe slots (CancelAwait t g st)) eqn:Hs; [reflexivity|].
    destruct (unsafe_cancel_await_member _ _ _ _ Hl Hs) as (s & Hok & Hex). elim Hex. auto.
Qed.

(* the ledger: a procedure that completed has left no task of a joined slot running *)
Lemma continue_means_ended r stp t s :
  step_slot stp = Some t -> exec_member r stp s = Continue -> ended (task_after r stp s) = true.
Proof.
  intros Ht H. destruct stp as [t' g st|t' g st|tag|tag]; cbn in Ht; try discriminate.
  - cbn [exec_member task_after] in *. destruct (is_done s) eqn:Hd; [reflexivity|].
    rewrite andb_false_r in H. destruct (after_cancel r s); try reflexivity.
    destruct st; discriminate.
  - cbn [task_after]. destruct (is_done s); reflexivity.
Qed.

Lemma members_continue_all_ended r stp t : step_slot stp = Some t -> forall ms,
  exec_members r stp ms = Continue -> forallb (fun s => ended (task_after r stp s)) ms = true.
Proof.
  intros Ht. induction ms as [|s ms IH]; cbn [exec_members forallb]; intros H; [reflexivity|].
  destruct (exec_member r stp s) eqn:E; try discriminate.
  rewrite (continue_means_ended _ _ _ _ Ht E). cbn. auto.
Qed.

Theorem completed_leaves_joined_tasks_ended slots env : forall prog k,
  run_from k slots env prog = Completed ->
  forall stp t, In stp prog -> step_slot stp = Some t ->
    forallb (fun s => ended (task_after (s_routine (nth t slots default_slot)) stp s)) (nth t env []) = true.
Proof.
  induction prog as [|stp0 prog IH]; intros k H stp t Hin Ht; [destruct Hin|].
  cbn [run_from] in H. destruct (exec_step slots env stp0) eqn:E; try discriminate.
  destruct Hin as [->|Hin].
  - unfold exec_step in E. rewrite Ht in E. eapply members_continue_all_ended; eauto.
  - eapply IH; eauto.
Qed.

Corollary safe_nothing_running slots env prog stp t :
  prog_safe slots prog = true -> env_ok slots env = true -> In stp prog -> step_slot stp = Some t ->
  forallb (fun s => ended (task_after (s_routine (nth t slots default_slot)) stp s)) (nth t env []) = true.
Proof.
  intros Hp He. apply completed_leaves_joined_tasks_ended with (k := 0). apply safe_completes; auto.
Qed.

(* style [b] absorbs whatever [a] absorbs: bare, then try/except CancelledError or suppress, then
   gather(return_exceptions=True) *)
Definition style_le (a b : style) : bool :=
  match a, b with
  | SBare, _ => true
  | SCatch, SCatch | SCatch, SGather => true
  | SGather, SGather => true
  | _, _ => false
  end.

Lemma await_fin_mono st st' f :
  style_le st st' = true -> await_fin st f = Continue -> await_fin st' f = Continue.
Proof. destruct st, st', f; intros H1 H2; try discriminate; reflexivity. Qed.

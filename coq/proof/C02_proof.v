(* C02_proof.v — what MessageBatch.done / done_noack / failure resolve (model/C02_Done.v), and the
   batch life cycle of model/Producer.v: every accepted record is resolved once *)
From Coq Require Import ZArith List Bool Lia ZifyBool.
From Verif Require Import Producer C01_proof C02_Done.
Import ListNotations.
Open Scope Z_scope.

Lemma for_pending_aux_spec body : forall fs i k r,
  In (k, r) (for_pending_aux i body fs) <->
  exists j f, k = (i + j)%nat /\ nth_error fs j = Some f /\ f_done f = false /\ r = body f.
Proof.
  induction fs as [|f fs IH]; intros i k r; cbn [for_pending_aux].
  - split; [intros []|]. intros (j & f & _ & H & _). destruct j; discriminate.
  - destruct (f_done f) eqn:Ed.
    + rewrite IH. split.
      * intros (j & g & -> & Hn & Hd & ->). exists (S j), g. repeat split; try assumption. lia.
      * intros (j & g & -> & Hn & Hd & ->). destruct j as [|j]; cbn in Hn.
        -- injection Hn as <-. congruence.
        -- exists j, g. repeat split; try assumption. lia.
    + cbn [In]. rewrite IH. split.
      * intros [H|(j & g & -> & Hn & Hd & ->)].
        -- injection H as <- <-. exists O, f. repeat split; try assumption. lia.
        -- exists (S j), g. repeat split; try assumption. lia.
      * intros (j & g & -> & Hn & Hd & ->). destruct j as [|j]; cbn in Hn.
        -- injection Hn as <-. left. f_equal. lia.
        -- right. exists j, g. repeat split; try assumption. lia.
Qed.

Lemma for_pending_aux_nodup body : forall fs i, NoDup (map fst (for_pending_aux i body fs)).
Proof.
  induction fs as [|f fs IH]; intros i; cbn [for_pending_aux]; [constructor|].
  destruct (f_done f); [apply IH|]. cbn [map fst]. constructor; [|apply IH].
  intros Hin. apply in_map_iff in Hin. destruct Hin as ((k & r) & Hk & Hin). cbn in Hk. subst k.
  apply for_pending_aux_spec in Hin. destruct Hin as (j & _ & Hj & _). lia.
Qed.

(* done and done_noack / failure are instances of it *)
Lemma done_aux_eq base bts ls : forall fs i,
  done_aux i base bts ls fs =
  for_pending_aux i (fun f => RMeta (if base <? 0 then -1 else base + f_rel f) (if bts =? -1 then f_ts f else bts)
                                    (if bts =? -1 then 0 else 1) ls) fs.
Proof.
  induction fs as [|f fs IH]; intros i; cbn [for_pending_aux done_aux]; [reflexivity|].
  rewrite IH. reflexivity.
Qed.

Lemma all_aux_eq r : forall fs i, all_aux i r fs = for_pending_aux i (fun _ => r) fs.
Proof.
  induction fs as [|f fs IH]; intros i; cbn [for_pending_aux all_aux]; [reflexivity|].
  rewrite IH. reflexivity.
Qed.

Definition pend_recs (s : st) : list nat := match pend s with Some p => precs p | None => [] end.
Definition cnt (r : nat) (l : list nat) : nat := count_occ Nat.eq_dec l r.
Arguments cnt : simpl never.

(* every accepted record is in one place, as often as it was accepted: acknowledged, failed, in flight or queued *)
Definition Bal (s : st) : Prop :=
  forall r, (cnt r (acked s) + cnt r (failed s) + cnt r (pend_recs s) + cnt r (concat (uq s)))%nat
            = cnt r (accepted s).

Lemma cnt_app r a b : cnt r (a ++ b) = (cnt r a + cnt r b)%nat.
Proof. apply count_occ_app. Qed.

Lemma bal_init0 : Bal init0. Proof. intros r. reflexivity. Qed.

Lemma step_bal s e s' ov : Bal s -> step s e = Some (s', ov) -> Bal s'.
Proof.
  intros B H r. specialize (B r). apply step_Step in H. unfold pend_recs in *.
  destruct H as [r0 nb q' Hc _|b rest Ep Eq|p Ep _|p Ep _ _|p v Ep _ _ _|p Ep _|p Ep _|p Ep _|Ep Eq];
    try rewrite Ep in B; cbn; rewrite ?cnt_app; change (cnt r []) with O in *.
  - rewrite Hc, cnt_app. lia.
  - rewrite Eq in B. cbn in B. rewrite cnt_app in B. lia.
  - exact B.
  - exact B.
  - exact B.
  - lia.
  - exact B.
  - lia.
  - rewrite Ep. exact B.
Qed.

Lemma run_bal : forall tr s s' vs, Bal s -> run s tr = Some (s', vs) -> Bal s'.
Proof.
  induction tr as [|e tr IH]; intros s s' vs B H; cbn [run] in H.
  - injection H as <- _. exact B.
  - destruct (step s e) as [[s1 ov]|] eqn:E; [|discriminate].
    destruct (run s1 tr) as [[s2 vs2]|] eqn:E2; [|discriminate]. injection H as <- _.
    eapply IH; [eapply step_bal; eassumption|exact E2].
Qed.

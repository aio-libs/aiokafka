(* Lock-step shedding: along a heaviest-first one-per-turn order, every member that has already given up a
   partition stays within one of the current maximum.  This is what makes the partitions shed by old members go to
   the new (least loaded) members rather than to another old member. *)
From Coq Require Import Arith List Bool Lia.
From Verif Require Import C15_Order.
Import ListNotations.

Lemma maxl_ge : forall l c x, nth_error l c = Some x -> x <= maxl l.
Proof.
  induction l as [|y l IH]; intros c x H.
  - destruct c; discriminate.
  - destruct c as [|c]; cbn [nth_error] in H; cbn [maxl fold_right].
    + injection H as ->. apply Nat.le_max_l.
    + specialize (IH c x H). fold (maxl l). lia.
Qed.

Lemma maxl_dec_le : forall l c, maxl (dec l c) <= maxl l.
Proof.
  induction l as [|y l IH]; intros c.
  - destruct c; cbn; lia.
  - destruct c as [|c]; cbn [dec maxl fold_right]; fold (maxl l).
    + lia.
    + fold (maxl (dec l c)). specialize (IH c). lia.
Qed.

Lemma nth_dec : forall l c d,
  nth_error (dec l c) d = if c =? d then option_map pred (nth_error l d) else nth_error l d.
Proof.
  induction l as [|y l IH]; intros c d.
  - destruct d; cbn; destruct (c =? _); reflexivity.
  - destruct c as [|c], d as [|d]; cbn [nth_error dec Nat.eqb]; try reflexivity. apply IH.
Qed.

(* the members of [Sh] (those that have shed a partition) are within one of the maximum *)
Definition near_max (Sh : list nat) (l : list nat) : Prop :=
  forall c x, In c Sh -> nth_error l c = Some x -> maxl l <= S x.

Lemma step_keeps_near_max : forall Sh l c,
  near_max Sh l -> step_ok l c = true -> near_max (c :: Sh) (dec l c).
Proof.
  intros Sh l c Hinv Hstep d x Hin Hnth.
  unfold step_ok in Hstep.
  destruct (nth_error l c) as [xc|] eqn:Hc; [|discriminate].
  apply andb_prop in Hstep as [Hpos Hmax].
  apply Nat.ltb_lt in Hpos. apply Nat.eqb_eq in Hmax.
  pose proof (maxl_dec_le l c) as Hle.
  rewrite nth_dec in Hnth. destruct (Nat.eqb_spec c d) as [<-|Hne].
  - rewrite Hc in Hnth. injection Hnth as <-. lia.
  - destruct Hin as [Heq|Hin]; [congruence|].
    specialize (Hinv d x Hin Hnth). lia.
Qed.

Lemma order_keeps_near_max : forall o Sh l,
  near_max Sh l -> order_ok l o = true -> near_max (rev o ++ Sh) (run l o).
Proof.
  induction o as [|c o IH]; intros Sh l Hinv Hok; cbn [order_ok run rev app] in *.
  - exact Hinv.
  - apply andb_prop in Hok as [Hstep Hok].
    rewrite <- app_assoc. cbn [app].
    apply IH; [apply step_keeps_near_max; assumption | exact Hok].
Qed.

Theorem heaviest_first_lockstep : forall l o c x,
  order_ok l o = true -> In c o -> nth_error (run l o) c = Some x -> maxl (run l o) <= S x.
Proof.
  intros l o c x Hok Hin Hnth.
  assert (H : near_max (rev o ++ []) (run l o)).
  { apply order_keeps_near_max; [intros d y [] | exact Hok]. }
  apply (H c x); [|exact Hnth].
  rewrite app_nil_r. apply in_rev in Hin. exact Hin.
Qed.

(* and at every intermediate point: any prefix of an accepted order is accepted *)
Lemma order_ok_prefix : forall o1 o2 l, order_ok l (o1 ++ o2) = true -> order_ok l o1 = true.
Proof.
  induction o1 as [|c o1 IH]; intros o2 l H; cbn [order_ok app] in *; [reflexivity|].
  apply andb_prop in H as [H1 H2]. rewrite H1. cbn. eapply IH; exact H2.
Qed.

(* counts 4 and 3: always taking from a member that holds the most is accepted; taking from member 0
   a third time, while member 1 holds more, is not *)
Example order_example_ok : order_ok [4; 3] [0; 0; 1; 0; 1; 0; 1] = true.
Proof. vm_compute. reflexivity. Qed.
Example order_example_bad : order_ok [4; 3] [0; 0; 0; 1; 1; 0; 1] = false.
Proof. vm_compute. reflexivity. Qed.

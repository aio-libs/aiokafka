(* C03_lists.v — sorted offset lists, [between], the log lemmas (visible is strictly increasing,
   what [unpack] yields on an answer of the leader) for model/C03_Fetcher.v *)
From Coq Require Import ZArith List Bool Lia ZifyBool.
From Verif Require Import ListFacts C03_Fetcher.
Import ListNotations.
Open Scope Z_scope.

(* strictly increasing and all >= lo *)
Fixpoint ssorted (lo : Z) (l : list Z) : Prop :=
  match l with [] => True | x :: l' => lo <= x /\ ssorted (x + 1) l' end.

Lemma ssorted_weaken lo lo' l : lo' <= lo -> ssorted lo l -> ssorted lo' l.
Proof. destruct l; simpl; intuition lia. Qed.

Lemma ssorted_ge l : forall lo x, ssorted lo l -> In x l -> lo <= x.
Proof.
  induction l as [|y l IH]; simpl; intros lo x H I; [contradiction|].
  destruct H as (H1 & H2). destruct I as [->|I]; [lia|]. specialize (IH _ _ H2 I). lia.
Qed.

Lemma ssorted_app l1 : forall lo hi l2,
  ssorted lo l1 -> (forall x, In x l1 -> x < hi) -> lo <= hi -> ssorted hi l2 -> ssorted lo (l1 ++ l2).
Proof.
  induction l1 as [|y l1 IH]; simpl; intros lo hi l2 H B Hle H2.
  - eapply ssorted_weaken; eauto.
  - destruct H as (H1 & H3). split; [exact H1|].
    apply IH with hi; auto. specialize (B y (or_introl eq_refl)). lia.
Qed.

Lemma ssorted_NoDup l : forall lo, ssorted lo l -> NoDup l.
Proof.
  induction l as [|y l IH]; simpl; intros lo H; constructor.
  - intros I. destruct H as (_ & H). pose proof (ssorted_ge _ _ _ H I). lia.
  - destruct H as (_ & H). eauto.
Qed.

Lemma ssorted_lt_pairs l : forall lo, ssorted lo l ->
  forall i j, (i < j < length l)%nat -> nth i l 0 < nth j l 0.
Proof.
  induction l as [|y l IH]; simpl; intros lo H i j Hij; [lia|].
  destruct H as (H1 & H2). destruct j as [|j]; [lia|]. destruct i as [|i].
  - assert (In (nth j l 0) l) by (apply nth_In; lia).
    pose proof (ssorted_ge _ _ _ H2 H). lia.
  - eapply IH; eauto. lia.
Qed.

Lemma between_app a b l1 l2 : between a b (l1 ++ l2) = between a b l1 ++ between a b l2.
Proof. unfold between. apply filter_app. Qed.

Lemma between_In a b l x : In x (between a b l) <-> In x l /\ a <= x < b.
Proof. unfold between. rewrite filter_In. intuition lia. Qed.

Lemma between_all a b l : (forall x, In x l -> a <= x < b) -> between a b l = l.
Proof. intros H. apply filter_all. intros x I. specialize (H x I). lia. Qed.

Lemma between_none a b l : (forall x, In x l -> x < a \/ b <= x) -> between a b l = [].
Proof. intros H. apply filter_none. intros x I. specialize (H x I). lia. Qed.

Lemma between_empty_range a b l : b <= a -> between a b l = [].
Proof. intros. apply between_none. intros. lia. Qed.

Lemma between_sorted a b l : forall lo, ssorted lo l -> ssorted (Z.max lo a) (between a b l).
Proof.
  induction l as [|y l IH]; simpl; intros lo H; [exact I|].
  destruct H as (H1 & H2). destruct ((a <=? y) && (y <? b)) eqn:E.
  - simpl. split; [lia|]. eapply ssorted_weaken; [|apply IH; exact H2]. lia.
  - eapply ssorted_weaken; [|apply IH; exact H2]. lia.
Qed.

(* on a sorted list, a predicate that holds only below b and one that holds only from b on select
   two adjacent blocks *)
Lemma filter_cut l : forall lo (p q : Z -> bool) b, ssorted lo l ->
  (forall x, p x = true -> x < b) -> (forall x, q x = true -> b <= x) ->
  filter (fun x => p x || q x) l = filter p l ++ filter q l.
Proof.
  induction l as [|y l IH]; cbn; intros lo p q b H Hp Hq; [reflexivity|]. destruct H as (_ & H).
  rewrite (IH _ p q b H Hp Hq). destruct (p y) eqn:Py, (q y) eqn:Qy; cbn; try reflexivity.
  - apply Hp in Py. apply Hq in Qy. lia.
  - (* y is at or above b, and so is the rest *)
    rewrite (filter_none p l); [reflexivity|]. intros x I. destruct (p x) eqn:Px; [|reflexivity].
    apply Hp in Px. apply Hq in Qy. pose proof (ssorted_ge _ _ _ H I). lia.
Qed.

Lemma between_split l lo a b c : ssorted lo l -> a <= b <= c ->
  between a c l = between a b l ++ between b c l.
Proof.
  intros H Habc. unfold between. rewrite <- (filter_cut l lo _ _ b H) by (intros; lia).
  apply filter_ext. intros x. lia.
Qed.

Lemma between_first l lo a b r t : ssorted lo l -> between a b l = r :: t ->
  a <= r < b /\ between a (r + 1) l = [r] /\ between (r + 1) b l = t.
Proof.
  intros H E. assert (I : In r (between a b l)) by (rewrite E; left; reflexivity).
  apply between_In in I. split; [tauto|].
  rewrite (between_split l lo a (r + 1) b H) in E by lia.
  pose proof (between_sorted a (r + 1) l lo H) as S.
  destruct (between a (r + 1) l) as [|x [|y u]] eqn:F; cbn in E.
  - assert (J : In r (between (r + 1) b l)) by (rewrite E; left; reflexivity). apply between_In in J. lia.
  - injection E as -> <-. split; reflexivity.
  - (* a second element below r + 1 would come after r *)
    injection E as -> _. assert (J : In y (between a (r + 1) l)) by (rewrite F; right; left; reflexivity).
    apply between_In in J. cbn in S. lia.
Qed.

(* nothing visible in [a, b): moving the lower end over it changes nothing *)
Lemma between_skip l : forall lo a b c, ssorted lo l -> a <= b <= c -> between a b l = [] ->
  between a c l = between b c l.
Proof. intros lo a b c H Habc E. rewrite (between_split l lo a b c H Habc), E. reflexivity. Qed.

(* a slice of a sorted list is a contiguous block of it *)
Lemma between_block l lo a e : ssorted lo l -> a <= e ->
  l = filter (fun r => r <? a) l ++ between a e l ++ filter (fun r => e <=? r) l.
Proof.
  intros H Hae. unfold between.
  rewrite <- (filter_cut l lo _ _ e H), <- (filter_cut l lo _ _ a H) by (intros; lia).
  symmetry. apply filter_all. intros. lia.
Qed.

Lemma zlist_eqb_eq a : forall b, zlist_eqb a b = true <-> a = b.
Proof.
  induction a as [|x a IH]; destruct b as [|y b]; simpl; split; intros H; try reflexivity; try discriminate.
  - apply andb_true_iff in H. destruct H as (H1 & H2). apply IH in H2. f_equal; [lia|exact H2].
  - inversion H; subst. apply andb_true_iff. split; [lia|]. apply IH. reflexivity.
Qed.

Lemma zlist_eqb_refl a : zlist_eqb a a = true.
Proof. apply zlist_eqb_eq. reflexivity. Qed.

Lemma incr_in_sorted l : forall lo hi, incr_in lo hi l = true ->
  ssorted lo l /\ (forall x, In x l -> x <= hi).
Proof.
  induction l as [|y l IH]; simpl; intros lo hi H; [split; [exact I|contradiction]|].
  apply andb_true_iff in H. destruct H as (H1 & H2). apply andb_true_iff in H1.
  destruct (IH _ _ H2) as (S1 & S2). split; [split; [lia|exact S1]|].
  intros x [->|I]; [lia|auto].
Qed.

Lemma visible_app A B : visible (A ++ B) = visible A ++ visible B.
Proof. unfold visible. apply flat_map_app. Qed.

(* end of a list of batches starting at lo *)
Definition lend (lo : Z) (A : list batch) : Z := fold_left (fun _ b => b_next b) A lo.

Lemma lend_app lo A B : lend lo (A ++ B) = lend (lend lo A) B.
Proof. unfold lend. apply fold_left_app. Qed.

Lemma wf_from_app A : forall lo B,
  wf_from lo (A ++ B) = true <-> wf_from lo A = true /\ wf_from (lend lo A) B = true.
Proof.
  induction A as [|a A IH]; simpl; intros lo B.
  - unfold lend; simpl. tauto.
  - rewrite !andb_true_iff, IH. unfold lend; simpl. unfold b_next. tauto.
Qed.

Lemma wf_from_weaken L lo lo' : lo' <= lo -> wf_from lo L = true -> wf_from lo' L = true.
Proof. destruct L; simpl; intros; [reflexivity|]. rewrite !andb_true_iff in *. intuition lia. Qed.

Lemma wf_from_cons lo a L : wf_from lo (a :: L) = true ->
  lo <= b_base a <= b_last a /\ ssorted (b_base a) (b_vis a) /\ (forall x, In x (b_vis a) -> x <= b_last a) /\
  wf_from (b_next a) L = true.
Proof.
  cbn [wf_from]. rewrite !andb_true_iff. intros (((H1 & H2) & H3) & H4).
  destruct (incr_in_sorted _ _ _ H3) as (S1 & S2). repeat split; try assumption; lia.
Qed.

Lemma wf_lend_le A : forall lo, wf_from lo A = true -> lo <= lend lo A.
Proof.
  induction A as [|a A IH]; intros lo H; [apply Z.le_refl|].
  apply wf_from_cons in H. destruct H as (H1 & _ & _ & H4). apply IH in H4.
  change (lend lo (a :: A)) with (lend (b_next a) A). unfold b_next in *. lia.
Qed.

Lemma wf_visible_sorted L : forall lo, wf_from lo L = true ->
  ssorted lo (visible L) /\ (forall x, In x (visible L) -> x < lend lo L).
Proof.
  induction L as [|b L IH]; intros lo H.
  - split; [exact I|intros x []].
  - apply wf_from_cons in H. destruct H as (H1 & S1 & S2 & H4).
    destruct (IH _ H4) as (S3 & S4). apply wf_lend_le in H4.
    change (visible (b :: L)) with (b_vis b ++ visible L).
    change (lend lo (b :: L)) with (lend (b_next b) L). unfold b_next in *. split.
    + apply ssorted_app with (b_last b + 1); [|intros x I; specialize (S2 x I)|..]; try assumption; try lia.
      apply (ssorted_weaken (b_base b)); [lia|exact S1].
    + intros x I. apply in_app_or in I. destruct I as [I|I]; [specialize (S2 x I); lia|auto].
Qed.

Lemma wf_last_lt L : forall lo b, wf_from lo L = true -> In b L -> lo <= b_last b /\ b_next b <= lend lo L.
Proof.
  induction L as [|a L IH]; intros lo b H I; [contradiction|].
  apply wf_from_cons in H. destruct H as (H1 & _ & _ & H4).
  change (lend lo (a :: L)) with (lend (b_next a) L).
  destruct I as [->|I]; [apply wf_lend_le in H4|apply (IH _ _ H4) in I]; unfold b_next in *; lia.
Qed.

Lemma from_off_all L : forall lo o, wf_from lo L = true -> o <= lo -> from_off o L = L.
Proof.
  unfold from_off. induction L as [|a L IH]; intros lo o H Hle; [reflexivity|].
  apply wf_from_cons in H. destruct H as (H1 & _ & _ & H4). cbn [filter].
  replace (o <=? b_last a) with true by lia. f_equal. apply (IH _ _ H4). unfold b_next. lia.
Qed.

Lemma from_off_In b o L : In b (from_off o L) <-> In b L /\ o <= b_last b.
Proof. unfold from_off. rewrite filter_In. intuition lia. Qed.

(* moving the offset past the end of a batch that was ahead leaves fewer batches ahead *)
Lemma from_off_shrinks L z p q : In z L -> p <= b_last z < q ->
  (length (from_off q L) < length (from_off p L))%nat.
Proof.
  unfold from_off. intros Iz Hz.
  assert (LE : forall A, le (length (filter (fun b => q <=? b_last b) A))
                            (length (filter (fun b => p <=? b_last b) A))).
  { induction A as [|c A IH]; cbn; [lia|]. destruct (q <=? b_last c) eqn:G1, (p <=? b_last c) eqn:G2; cbn; lia. }
  induction L as [|a L IH]; [contradiction|]. cbn [filter]. destruct Iz as [->|Iz].
  - replace (q <=? b_last z) with false by lia. replace (p <=? b_last z) with true by lia.
    specialize (LE L). cbn. lia.
  - specialize (IH Iz). destruct (q <=? b_last a) eqn:G1, (p <=? b_last a) eqn:G2; cbn; lia.
Qed.

Lemma visible_in_batch A : forall lo r, wf_from lo A = true -> In r (visible A) ->
  exists b, In b A /\ r <= b_last b.
Proof.
  induction A as [|a A IH]; intros lo r H I; [contradiction|].
  apply wf_from_cons in H. destruct H as (_ & _ & S2 & H4).
  change (visible (a :: A)) with (b_vis a ++ visible A) in I. apply in_app_or in I. destruct I as [I|I].
  - exists a. split; [left; reflexivity|apply S2; exact I].
  - destruct (IH _ _ H4 I) as (b & Ib & Hb). exists b. split; [right; exact Ib|exact Hb].
Qed.

Lemma past_all_batches L p : wf_log L = true -> from_off p L = [] -> forall r, In r (visible L) -> r < p.
Proof.
  intros WF E r I. destruct (visible_in_batch L 0 r WF I) as (b & Ib & Hb).
  destruct (Z_lt_le_dec r p) as [Hlt|Hge]; [exact Hlt|exfalso].
  assert (In b (from_off p L)) as J by (apply from_off_In; split; [exact Ib|lia]).
  rewrite E in J. exact J.
Qed.

Lemma batch_eqb_eq a b : batch_eqb a b = true -> a = b.
Proof.
  unfold batch_eqb. rewrite !andb_true_iff. intros ((H1 & H2) & H3). apply zlist_eqb_eq in H3.
  destruct a, b; simpl in *. f_equal; [lia|lia|exact H3].
Qed.

Lemma batch_eqb_refl a : batch_eqb a a = true.
Proof. unfold batch_eqb. rewrite !andb_true_iff, zlist_eqb_refl. repeat split; lia. Qed.

Lemma prefix_b_app p : forall l, prefix_b p l = true -> exists rest, l = p ++ rest.
Proof.
  induction p as [|x p IH]; simpl; intros l H; [exists l; reflexivity|].
  destruct l as [|y l]; [discriminate|]. apply andb_true_iff in H. destruct H as (H1 & H2).
  apply batch_eqb_eq in H1. subst y. destruct (IH _ H2) as (rest & ->). exists rest. reflexivity.
Qed.

Lemma prefix_b_firstn l : forall k, prefix_b (firstn k l) l = true.
Proof.
  induction l as [|x l IH]; intros [|k]; simpl; try reflexivity.
  rewrite batch_eqb_refl. apply IH.
Qed.

(* the iterator on a sorted batch: exactly the records at or after next_fetch_offset *)
Lemma take_recs_sorted l : forall lo nfo, ssorted lo l ->
  take_recs nfo l = filter (fun x => nfo <=? x) l.
Proof.
  induction l as [|y l IH]; simpl; intros lo nfo H; [reflexivity|].
  destruct H as (H1 & H2). destruct (y <? nfo) eqn:E.
  - replace (nfo <=? y) with false by lia. eapply IH; eauto.
  - replace (nfo <=? y) with true by lia. f_equal. rewrite (IH _ _ H2).
    apply filter_ext_in. intros x I. pose proof (ssorted_ge _ _ _ H2 I). lia.
Qed.

(* batches wholly at or after next_fetch_offset are delivered entirely *)
Lemma unpack_all A : forall lo nfo, wf_from lo A = true -> nfo <= lo ->
  unpack nfo A = (visible A, lend nfo A).
Proof.
  induction A as [|a A IH]; intros lo nfo H Hle; [reflexivity|].
  apply wf_from_cons in H. destruct H as (H1 & S1 & _ & H4).
  cbn [unpack]. rewrite (IH _ _ H4 (Z.le_refl _)). cbn [fst snd].
  change (lend nfo (a :: A)) with (lend (b_next a) A). f_equal.
  change (visible (a :: A)) with (b_vis a ++ visible A). f_equal.
  rewrite (take_recs_sorted _ _ _ S1).
  apply filter_all. intros x I. pose proof (ssorted_ge _ _ _ S1 I). lia.
Qed.

Lemma lend_nonempty A : forall lo lo', A <> [] -> lend lo A = lend lo' A.
Proof. destruct A as [|a A]; intros; [congruence|]. reflexivity. Qed.

Lemma lend_is_next A : forall lo, A <> [] -> exists z, In z A /\ lend lo A = b_next z.
Proof.
  induction A as [|a A IH]; intros lo NE; [congruence|]. destruct A as [|b A].
  - exists a. split; [left; reflexivity|reflexivity].
  - destruct (IH (b_next a) ltac:(discriminate)) as (z & Iz & Ez). exists z. split; [right; exact Iz|exact Ez].
Qed.

(* THE log lemma: on any answer the leader can give to Fetch(o) — a non-empty prefix of the
   batches ending at or after o — the iterator yields exactly the visible records of the log in
   [o, fin) and stops with next_fetch_offset = fin > o, fin = end of the last batch returned *)
Lemma unpack_valid L : forall lo o bs, wf_from lo L = true -> valid_resp L o bs = true -> bs <> [] ->
  fst (unpack o bs) = vis_between L o (snd (unpack o bs)) /\ o < snd (unpack o bs) /\
  (exists b, In b L /\ snd (unpack o bs) = b_next b).
Proof.
  unfold valid_resp, vis_between.
  induction L as [|a L IH]; intros lo o bs H V NE.
  - destruct bs; [congruence|discriminate].
  - apply wf_from_cons in H. destruct H as (H1 & S1 & S2 & H4).
    change (visible (a :: L)) with (b_vis a ++ visible L). rewrite between_app.
    unfold from_off in V. cbn [filter] in V. fold (from_off o L) in V. destruct (o <=? b_last a) eqn:E.
    + (* the answer is a, some whole batches bs after it, and not the rest *)
      rewrite (from_off_all _ _ _ H4) in V by (unfold b_next; lia).
      destruct (prefix_b_app _ _ V) as (rest & EL). destruct bs as [|b bs]; [congruence|]. injection EL as <- ->.
      apply wf_from_app in H4. destruct H4 as (W1 & W2). clear IH V NE.
      destruct (wf_visible_sorted _ _ W1) as (T1 & T2). destruct (wf_visible_sorted _ _ W2) as (T3 & _).
      cbn [unpack]. rewrite (unpack_all bs _ _ W1 (Z.le_refl _)). cbn [fst snd].
      apply wf_lend_le in W1. clear W2. unfold b_next in *. split; [|split; [lia|]].
      * rewrite (take_recs_sorted _ _ _ S1), visible_app, between_app.
        rewrite (between_all _ _ (visible bs)), (between_none _ _ (visible rest)), app_nil_r.
        -- f_equal. apply filter_ext_in. intros x I. specialize (S2 x I). lia.
        -- intros x I. pose proof (ssorted_ge _ _ _ T3 I). lia.
        -- intros x I. pose proof (ssorted_ge _ _ _ T1 I). specialize (T2 x I). lia.
      * destruct (lend_is_next (a :: bs) o ltac:(discriminate)) as (z & Iz & Ez).
        exists z. split; [|exact Ez]. rewrite app_comm_cons. apply in_or_app. left. exact Iz.
    + destruct (IH _ _ _ H4 V NE) as (E1 & E2 & z & Iz & Ez). split; [|split; [exact E2|]].
      * rewrite E1, (between_none _ _ (b_vis a)); [reflexivity|]. intros x I. specialize (S2 x I). lia.
      * exists z. split; [right; exact Iz|exact Ez].
Qed.

(* C10_wp.v — "weakest precondition" style reasoning for the C10 models.
   [wp m Q]: the computation m either returns a value satisfying Q or raises a Python
   exception; it does NOT read out of bounds, run out of fuel or fail with an internal error. *)
From Coq Require Import ZArith List Bool Lia ZifyBool.
From Verif Require Import C10_Base.
Import ListNotations.
Open Scope Z_scope.

Definition okf (f : failure) : Prop := match f with FRaise _ => True | _ => False end.

Definition wp {A} (m : res A) (Q : A -> Prop) : Prop :=
  match m with Ok a => Q a | Fail f => okf f end.

(* a final status is acceptable: finished, or an ordinary Python exception *)
Definition ok_status (st : status) : Prop :=
  match st with SDone => True | SFail f => okf f end.

Lemma wp_ok {A} (a : A) (Q : A -> Prop) : Q a -> wp (Ok a) Q.
Proof. auto. Qed.
Lemma wp_raise {A} e (Q : A -> Prop) : wp (raise e) Q.
Proof. exact I. Qed.
Lemma wp_mono {A} (m : res A) (P Q : A -> Prop) :
  wp m P -> (forall a, P a -> Q a) -> wp m Q.
Proof. destruct m; simpl; auto. Qed.
Lemma wp_bind_mono {A B} (m : res A) (k : A -> res B) (P : A -> Prop) (Q : B -> Prop) :
  wp m P -> (forall a, P a -> wp (k a) Q) -> wp (bind m k) Q.
Proof. destruct m; simpl; auto. Qed.
Lemma wp_inv {A} (m : res A) (Q : A -> Prop) a : wp m Q -> m = Ok a -> Q a.
Proof. intros H ->. exact H. Qed.
Lemma wp_fail {A} (m : res A) (Q : A -> Prop) f : wp m Q -> m = Fail f -> okf f.
Proof. intros H ->. exact H. Qed.

(* the two steps of every proof below: run [m] by its lemma [lem], go on with the rest *)
Ltac step lem :=
  eapply wp_bind_mono; [apply lem; try assumption; try lia | cbv beta].
Ltac mono lem :=
  eapply wp_mono; [apply lem; try assumption; try lia | cbv beta].
Ltac pairstep lem v p H :=
  step lem; intros [v p] H; cbn [snd fst] in H; cbv beta iota zeta.

(* the drivers match on a result themselves: they stop with the failure or go on with the value *)
Lemma ok_match {A} (m : res A) (Q : A -> Prop) (k : A -> list rec * status) (pre : list rec) :
  wp m Q -> (forall a, Q a -> ok_status (snd (k a))) ->
  ok_status (snd (match m with Ok a => k a | Fail e => (pre, SFail e) end)).
Proof. destruct m; cbn; auto. Qed.
Ltac okstep lem :=
  eapply ok_match; [apply lem; try assumption; try lia | cbv beta].

Lemma ok_status_excl st : ok_status st ->
  (forall s sp p n l, st <> SFail (FOOB s sp p n l)) /\ (forall s, st <> SFail (FFuel s))
  /\ (forall s e, st <> SFail (FInternal s e)).
Proof. intros H. repeat split; intros; intros ->; exact H. Qed.

Lemma zlen_nonneg {A} (l : list A) : 0 <= zlen l.
Proof. unfold zlen. lia. Qed.

Lemma zlen_sub_le (l : list Z) p n : zlen (sub l p n) <= zlen l.
Proof.
  unfold sub, zlen. rewrite firstn_length, skipn_length. lia.
Qed.

Lemma zlen_sub (l : list Z) p n : 0 <= p -> 0 <= n -> p + n <= zlen l -> zlen (sub l p n) = n.
Proof.
  unfold sub, zlen. intros. rewrite firstn_length, skipn_length. lia.
Qed.

Lemma zlen_length {A} (l : list A) : zlen l = Z.of_nat (List.length l).
Proof. reflexivity. Qed.

(* the fuel the drivers give their loops: one more than the bytes there are *)
Lemma fuel_ok {A} (l : list A) p : 0 <= p -> zlen l - p < Z.of_nat (S (List.length l)).
Proof. rewrite zlen_length. lia. Qed.

Lemma rd_wp site sp buf pos n :
  0 <= pos -> pos + n <= zlen buf -> wp (rd site sp buf pos n) (fun l => l = sub buf pos n).
Proof.
  intros. unfold rd.
  replace ((0 <=? pos) && (pos + n <=? zlen buf)) with true by lia. reflexivity.
Qed.

Lemma bind_ok_inv {A B} (m : res A) (k : A -> res B) b :
  bind m k = Ok b -> exists a, m = Ok a /\ k a = Ok b.
Proof. destruct m; cbn; [eauto|discriminate]. Qed.

Lemma rd_u_inv site sp buf pos n v :
  rd_u site sp buf pos n = Ok v -> pos + n <= zlen buf /\ v = be_u (sub buf pos n).
Proof.
  unfold rd_u, rd. destruct ((0 <=? pos) && (pos + n <=? zlen buf)) eqn:E; [|discriminate].
  cbn [bind]. intros [= <-]. split; [lia|reflexivity].
Qed.

Lemma rd_u_wp site sp buf pos n :
  0 <= pos -> pos + n <= zlen buf -> wp (rd_u site sp buf pos n) (fun v => v = be_u (sub buf pos n)).
Proof.
  intros. unfold rd_u. eapply wp_bind_mono; [apply rd_wp; assumption|].
  intros a ->. reflexivity.
Qed.

Lemma rd_i_wp site sp buf pos n :
  0 <= pos -> pos + n <= zlen buf -> wp (rd_i site sp buf pos n) (fun _ => True).
Proof.
  intros. unfold rd_i. eapply wp_bind_mono; [apply rd_wp; assumption|].
  intros a _. exact I.
Qed.

Definition small (buf : list Z) : Prop := zlen buf < ALLOC_MAX.

Lemma small_sub buf p n : small buf -> small (sub buf p n).
Proof. unfold small. intro H. pose proof (zlen_sub_le buf p n). lia. Qed.

Lemma bytes_from_wp site sp buf pos size :
  small buf -> 0 <= pos -> 0 <= size -> pos + size <= zlen buf ->
  wp (bytes_from site sp buf pos size) (fun _ => True).
Proof.
  unfold small, bytes_from, ALLOC_MAX, PY_SSIZE_T_MAX. intros Hs Hp Hn Hb.
  pose proof (zlen_nonneg buf).
  replace (size <? 0) with false by lia.
  replace (2 ^ 63 - 1 - 33 <? size) with false by lia.
  replace (2 ^ 47 <=? size) with false by lia.
  mono rd_wp. trivial.
Qed.

Lemma py_unpack_from_wp l off size : wp (py_unpack_from l off size) (fun _ => True).
Proof.
  unfold py_unpack_from.
  destruct (off <? 0); [destruct (0 <? off + size); [exact I|destruct (off + zlen l <? 0); exact I]|].
  destruct (zlen l - off <? size); exact I.
Qed.

Lemma py_unpack_from_pos l off size :
  0 <= off -> wp (py_unpack_from l off size) (fun _ => off + size <= zlen l).
Proof.
  intros. unfold py_unpack_from.
  replace (off <? 0) with false by lia.
  destruct (zlen l - off <? size) eqn:E; [exact I|]. simpl. lia.
Qed.

Lemma py_getitem_wp l i : 0 <= i -> wp (py_getitem l i) (fun _ => i < zlen l).
Proof.
  intros. unfold py_getitem.
  destruct ((- zlen l <=? i) && (i <? zlen l)) eqn:E; [|exact I]. simpl. lia.
Qed.

Lemma py_norm_range n i : 0 <= n -> 0 <= py_norm n i <= n.
Proof. unfold py_norm. intros. destruct (i <? 0) eqn:E; lia. Qed.

Lemma zlen_py_slice l a b :
  zlen (py_slice l a b) = Z.max 0 (py_norm (zlen l) b - py_norm (zlen l) a).
Proof.
  unfold py_slice.
  pose proof (zlen_nonneg l).
  pose proof (py_norm_range (zlen l) a H). pose proof (py_norm_range (zlen l) b H).
  destruct (py_norm (zlen l) a <? py_norm (zlen l) b) eqn:E.
  - rewrite zlen_sub by lia. lia.
  - change (zlen (@nil Z)) with 0. lia.
Qed.

Lemma zlen_py_slice_le l a b : zlen (py_slice l a b) <= zlen l.
Proof.
  rewrite zlen_py_slice.
  pose proof (zlen_nonneg l).
  pose proof (py_norm_range (zlen l) a H). pose proof (py_norm_range (zlen l) b H). lia.
Qed.

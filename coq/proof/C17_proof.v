(* C17_proof.v — the translated murmur2 / DefaultPartitioner.__call__ against the Java spec *)
From Coq Require Import ZArith List Bool Lia ZifyBool.
From Verif Require Import Imp ImpLemmas Bits Murmur2 Partitioner Murmur2Java C17_arith.
Import ListNotations.
Open Scope Z_scope.

Lemma skipn_add {A} n m (l : list A) : skipn (n + m) l = skipn m (skipn n l).
Proof.
  revert l. induction n as [|n IH]; intros l; [reflexivity|].
  destruct l; [rewrite !skipn_nil; reflexivity|apply IH].
Qed.

Lemma skipn_nth_py (data : list Z) (q : nat) j :
  0 <= j -> py_index 0 data (Z.of_nat q + j) = nth (Z.to_nat j) (skipn q data) 0.
Proof.
  intros Hj. rewrite py_index_nonneg by lia.
  replace (Z.to_nat (Z.of_nat q + j)) with (q + Z.to_nat j)%nat by lia.
  revert data. induction q as [|q IH]; intros data; [reflexivity|].
  destruct data as [|x data]; [destruct (Z.to_nat j); reflexivity|apply IH].
Qed.

Lemma land_lnot3 x : 0 <= x -> Z.land x (Z.lnot 3) = 4 * (x / 4).
Proof.
  intros Hx. rewrite <- Z.ldiff_land. change 3 with (Z.ones 2).
  rewrite Z.ldiff_ones_r by lia.
  rewrite Z.shiftr_div_pow2, Z.shiftl_mul_pow2 by lia. change (2 ^ 2) with 4. lia.
Qed.

Import Murmur2.

(* One call-by-value pass from the program's name to its normal form: unfolding the program
   first and reducing its chain of record updates afterwards is what makes Qed slow. *)
Ltac unf f := cbv beta zeta delta [f set_length set_seed set_m set_r set_h
   set_length4 set_i set_extra_bytes set_i4 set_k v_length v_seed v_m v_r v_h v_length4 v_i
   v_extra_bytes v_i4 v_k] iota.

Lemma L1_body_step data i s :
  py_index_ok data (i * 4 + 0) = true -> py_index_ok data (i * 4 + 1) = true ->
  py_index_ok data (i * 4 + 2) = true -> py_index_ok data (i * 4 + 3) = true ->
  v_m s = PM -> v_r s = 24 ->
  exists s', L1_body data i s = (s', FNext) /\
    v_h s' = umix (v_h s) (py_index 0 data (i * 4 + 0)) (py_index 0 data (i * 4 + 1))
                  (py_index 0 data (i * 4 + 2)) (py_index 0 data (i * 4 + 3)) /\
    v_m s' = PM /\ v_r s' = 24 /\ v_length s' = v_length s.
Proof.
  intros H0 H1 H2 H3 Im Ir. destruct s as [sl ss sm sr sh sl4 si se si4 sk].
  cbn [v_m v_r] in Im, Ir. subst sm sr.
  unf L1_body. rewrite H0, H1, H2, H3.
  eexists. split; [reflexivity|]. repeat split.
Qed.

(* after k rounds the blocks before 4k are hashed into v_h *)
Definition LoopInv (data : list Z) (h0 : Z) (k : nat) (s : st) : Prop :=
  uloop data h0 = uloop (skipn (4 * k) data) (v_h s) /\
  v_m s = PM /\ v_r s = 24 /\ v_length s = zlen data.

(* the index has the shape start + k that [for_range_inv] gives it *)
Lemma L1_body_inv data h0 k s :
  4 * (Z.of_nat k + 1) <= zlen data -> LoopInv data h0 k s ->
  exists s', L1_body data (0 + Z.of_nat k) s = (s', FNext) /\ LoopInv data h0 (Datatypes.S k) s'.
Proof.
  intros Hb (Ih & Im & Ir & Il).
  destruct (L1_body_step data (0 + Z.of_nat k) s) as (s' & E & Ih' & Im' & Ir' & Il');
    try assumption; try (apply py_index_ok_true; lia).
  exists s'. split; [exact E|]. split; [|rewrite Il'; auto].
  rewrite Ih, Ih'. replace ((0 + Z.of_nat k) * 4) with (Z.of_nat (4 * k)) by lia.
  rewrite !skipn_nth_py by lia.
  replace (4 * Datatypes.S k)%nat with (4 * k + 4)%nat by lia. rewrite skipn_add.
  assert (Hl : (4 <= length (skipn (4 * k) data))%nat) by (rewrite skipn_length; unfold zlen in Hb; lia).
  destruct (skipn (4 * k) data) as [|b0 [|b1 [|b2 [|b3 r]]]]; cbn [length] in Hl; try lia.
  reflexivity.
Qed.

(* the tail as the program indexes it, by positions computed from the length; [tail_h_utail]
   below says it is [utail] of the bytes left after the last whole block *)
Definition tail_h (data : list Z) (h : Z) : Z :=
  let len := zlen data in
  let base := Z.land len (Z.lnot 3) in
  let e := len mod 4 in
  let h := if 3 <=? e then utail_sh 16 h (py_index 0 data (base + 2)) else h in
  let h := if 2 <=? e then utail_sh 8 h (py_index 0 data (base + 1)) else h in
  if 1 <=? e then utail1 h (py_index 0 data base) else h.

(* each guarded byte of the tail either is skipped or has its index in range; a taken guard
   exposes the next update of the state, hence the repeated unfolding *)
Lemma L2_after_spec data s :
  v_m s = PM -> v_length s = zlen data ->
  finish 0 (L2_after data s) = Ok (ufinal (tail_h data (v_h s))).
Proof.
  intros Im Il.
  destruct s as [sl ss sm sr sh sl4 si se si4 sk].
  cbn [v_h v_m v_length] in Im, Il |- *. subst sm sl.
  pose proof (zlen_nonneg data) as Hlen.
  unfold tail_h. unf L2_after.
  rewrite land_lnot3 by exact Hlen.
  destruct (3 <=? zlen data mod 4) eqn:E3; [rewrite py_index_ok_true by lia|];
    cbn [seq_flow fst snd]; unf L2_after; rewrite ?land_lnot3 by exact Hlen.
  all: destruct (2 <=? zlen data mod 4) eqn:E2; [rewrite py_index_ok_true by lia|];
    cbn [seq_flow fst snd]; unf L2_after; rewrite ?land_lnot3 by exact Hlen.
  all: destruct (1 <=? zlen data mod 4) eqn:E1; [rewrite py_index_ok_true by lia|].
  (* both sides to normal form first: comparing the unfolded program with the folded specification is slow *)
  all: cbv [ufinal utail1 utail_sh MASK seq_flow fst snd finish]; reflexivity.
Qed.

Lemma tail_h_utail data h : tail_h data h = utail h (skipn (4 * Z.to_nat (zlen data / 4)) data).
Proof.
  unfold tail_h. cbv zeta. pose proof (zlen_nonneg data) as Hlen. rewrite land_lnot3 by exact Hlen.
  remember (4 * Z.to_nat (zlen data / 4))%nat as q eqn:Hq.
  replace (4 * (zlen data / 4)) with (Z.of_nat q) by lia.
  assert (Hl : Z.of_nat (length (skipn q data)) = zlen data mod 4)
    by (rewrite skipn_length; unfold zlen in *; lia).
  rewrite <- Hl, !skipn_nth_py, <- (Z.add_0_r (Z.of_nat q)), skipn_nth_py by lia.
  destruct (skipn q data) as [|b0 [|b1 [|b2 [|b3 r]]]]; cbn [length] in Hl; [reflexivity..|lia].
Qed.

(* 2538058380 = 0x9747b28c, the seed of the Java client *)
Theorem murmur2_py_list data : Murmur2.py data = Ok (uloop data (Z.lxor 2538058380 (zlen data))).
Proof.
  unfold Murmur2.py, Murmur2.run, init. unf body.
  pose proof (zlen_nonneg data) as Hlen.
  set (h0 := Z.lxor 2538058380 (zlen data)).
  match goal with |- context [for_range ?n 0 ?b ?s] =>
    destruct (for_range_inv (LoopInv data h0) b n 0 s) as (s' & E & (Ih & Im & Ir & Il))
  end.
  - unfold LoopInv. cbn [v_h v_m v_r v_length]. repeat split; reflexivity.
  - intros k s Hk Hinv. apply L1_body_inv; [lia|exact Hinv].
  - rewrite E, seq_flow_next, L2_after_spec by assumption.
    rewrite tail_h_utail, Ih. f_equal.
    symmetry. apply uloop_short. rewrite skipn_length. unfold zlen in *. lia.
Qed.

Theorem murmur2_eq_java data :
  wfb data -> zlen data < 2147483648 ->
  Murmur2.py data = Ok (u32 (murmur2_java (map to_signed_byte data))).
Proof.
  intros Hwf Hlt. rewrite murmur2_py_list. f_equal.
  unfold murmur2_java. rewrite map_length, <- uloop_jloop by exact Hwf. f_equal.
  rewrite u32_jxor, u32_s32. change (u32 J_SEED) with 2538058380.
  pose proof (zlen_nonneg data). rewrite u32_small by (unfold zlen in *; lia). reflexivity.
Qed.

Lemma zlen_pos {A} (l : list A) : l <> [] -> 0 < zlen l.
Proof. unfold zlen. destruct l; [congruence|cbn [length]; lia]. Qed.

Lemma pick_in (l : list Z) pick : l <> [] -> In (py_index 0 l (pick mod zlen l)) l.
Proof.
  intros Hne. pose proof (Z.mod_pos_bound pick (zlen l) (zlen_pos l Hne)) as Hp.
  rewrite py_index_nonneg by apply Hp. apply nth_In. unfold zlen in *. lia.
Qed.

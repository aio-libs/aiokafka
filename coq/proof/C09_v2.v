(* C09_v2.v — round trip and well-formedness of the v2 batch builder/reader models. *)
From Coq Require Import ZArith List Bool Lia ZifyBool.
From Verif Require Import Bits C09Bytes C09_Crc C09_Varint C09_RecordV2 C09_Valid C09_varint.
Import ListNotations.
Open Scope Z_scope.

(* the range predicates down to numerals, for lia *)
Ltac u31 := unfold int64, int32, int16, valid_rec in *; unfold INT64_MIN, INT64_MAX, TWO31 in *.

Lemma int64_of_small x : 0 <= x < TWO31 -> int64 x.
Proof. unfold int64, INT64_MIN, INT64_MAX, TWO31. lia. Qed.

Lemma dec_obytes_enc o rest : olen o < TWO31 ->
  dec_obytes (enc_obytes o ++ rest) = Some (o, rest).
Proof.
  intros H. unfold dec_obytes, enc_obytes. destruct o as [b|]; cbn [olen] in H.
  - pose proof (blen_nonneg b).
    rewrite <- app_assoc, varint_dec_enc by (apply int64_of_small; lia).
    cbn [bind]. replace (0 <=? blen b) with true by lia.
    rewrite take_app by reflexivity. reflexivity.
  - rewrite varint_dec_enc by (u31; lia). reflexivity.
Qed.

Lemma enc_obytes_len o : 1 <= blen (enc_obytes o) <= 10 + olen o.
Proof.
  unfold enc_obytes. destruct o as [b|]; cbn [olen]; rewrite ?blen_app.
  - pose proof (blen_nonneg b). pose proof (varint_enc_len_bounds (blen b)). lia.
  - pose proof (varint_enc_len_bounds (-1)). lia.
Qed.

Lemma size_obytes_len o : size_obytes o = blen (enc_obytes o).
Proof.
  unfold size_obytes, enc_obytes. destruct o as [b|].
  - rewrite blen_app, varint_size_len. reflexivity.
  - reflexivity.
Qed.

Definition hdr_ok (h : hdr) : Prop := blen (fst h) < TWO31 /\ olen (snd h) < TWO31.

Lemma enc_hdr_len h : 2 <= blen (enc_hdr h) <= 20 + blen (fst h) + olen (snd h).
Proof.
  unfold enc_hdr. rewrite !blen_app.
  pose proof (blen_nonneg (fst h)). pose proof (enc_obytes_len (snd h)).
  pose proof (varint_enc_len_bounds (blen (fst h))). lia.
Qed.

Lemma enc_hdr_nonempty h : (1 <= List.length (enc_hdr h))%nat.
Proof. pose proof (enc_hdr_len h). unfold blen in *. lia. Qed.

Lemma size_hdr_len h : size_hdr h = blen (enc_hdr h).
Proof.
  unfold size_hdr, enc_hdr. rewrite !blen_app, varint_size_len, size_obytes_len. lia.
Qed.

Lemma dec_headers_enc hs : forall fuel rest, Forall hdr_ok hs -> (List.length hs <= fuel)%nat ->
  dec_headers fuel (Z.of_nat (List.length hs)) (concat (map enc_hdr hs) ++ rest) = Some (hs, rest).
Proof.
  induction hs as [|h hs IH]; intros fuel rest Hok Hf.
  - destruct fuel; reflexivity.
  - destruct fuel as [|fuel]; [cbn in Hf; lia|].
    inversion Hok as [|h' hs' [Hk Hv] Hoks]; subst.
    cbn [dec_headers]. replace (Z.of_nat (List.length (h :: hs)) =? 0) with false
      by (cbn [List.length]; lia).
    cbn [map concat]. unfold enc_hdr at 1. rewrite <- !app_assoc.
    pose proof (blen_nonneg (fst h)).
    rewrite varint_dec_enc by (apply int64_of_small; lia).
    cbn [bind]. replace (blen (fst h) <? 0) with false by lia.
    rewrite take_app by reflexivity. cbn [bind].
    rewrite dec_obytes_enc by exact Hv. cbn [bind].
    replace (Z.of_nat (List.length (h :: hs)) - 1) with (Z.of_nat (List.length hs))
      by (cbn [List.length]; lia).
    rewrite IH by (try assumption; cbn [List.length] in Hf; lia).
    cbn [bind]. destruct h; reflexivity.
Qed.

Lemma concat_map_length {A} (f : A -> bytes) xs :
  (forall x, (1 <= List.length (f x))%nat) ->
  (List.length xs <= List.length (concat (map f xs)))%nat.
Proof.
  intros Hf. induction xs as [|x xs IH]; [cbn; lia|].
  cbn [map concat List.length]. rewrite app_length. specialize (Hf x). lia.
Qed.

Lemma fold_hdr_sizes hs :
  fold_right (fun h a => size_hdr h + a) 0 hs = blen (concat (map enc_hdr hs)).
Proof.
  induction hs as [|h hs IH]; [reflexivity|].
  cbn [fold_right map concat]. rewrite blen_app, IH, size_hdr_len. reflexivity.
Qed.

Theorem size_of_body_len delta off r : size_of_body delta off r = blen (enc_body delta off r).
Proof.
  unfold size_of_body, enc_body, size_of_kvh, enc_headers.
  rewrite !blen_app, !varint_size_len, !size_obytes_len, fold_hdr_sizes.
  change (blen [0]) with 1. lia.
Qed.

Lemma olen_nonneg o : 0 <= olen o.
Proof. destruct o; cbn [olen]; [apply blen_nonneg|lia]. Qed.

Definition hdrs_tot (hs : list hdr) : Z := fold_right (fun h a => hdr_bytes h + a) 0 hs.

(* [hdr_bytes] counts key and value bytes plus one *)
Lemma hdrs_tot_bounds hs :
  Z.of_nat (List.length hs) <= hdrs_tot hs
  /\ (hdrs_tot hs < TWO31 -> Forall hdr_ok hs)
  /\ blen (concat (map enc_hdr hs)) <= 20 * hdrs_tot hs.
Proof.
  induction hs as [|h hs (IH1 & IH2 & IH3)]; [cbn; repeat split; (lia || constructor)|].
  unfold hdrs_tot in *. cbn [fold_right List.length map concat]. rewrite blen_app.
  pose proof (enc_hdr_len h). unfold hdr_bytes, hdr_ok in *.
  pose proof (blen_nonneg (fst h)). pose proof (olen_nonneg (snd h)).
  split; [lia|]. split; [|lia].
  intros Hlt. constructor; [lia|apply IH2; lia].
Qed.

Lemma valid_rec_parts r : valid_rec r ->
  olen (r_key r) < TWO31 /\ olen (r_value r) < TWO31 /\ Forall hdr_ok (r_headers r) /\
  Z.of_nat (List.length (r_headers r)) < TWO31 /\
  blen (concat (map enc_hdr (r_headers r))) <= 20 * TWO31.
Proof.
  intros (Hts & Hoff & Hb). unfold rec_bytes in Hb. fold (hdrs_tot (r_headers r)) in Hb.
  pose proof (olen_nonneg (r_key r)). pose proof (olen_nonneg (r_value r)).
  destruct (hdrs_tot_bounds (r_headers r)) as (Hn & Hok & Henc).
  repeat split; try lia. apply Hok. lia.
Qed.

(* crude: key and value are below 2^31 each, the encoded headers at most 20 times their payload,
   itself below 2^31; any factor above 22 would do *)
Lemma enc_body_len_bound delta off r : valid_rec r -> 1 <= blen (enc_body delta off r) < 64 * TWO31.
Proof.
  intros Hv. destruct (valid_rec_parts r Hv) as (Hk & Hvl & Hh & Hn & Hc).
  unfold enc_body, enc_headers. rewrite !blen_app. change (blen [0]) with 1.
  pose proof (varint_enc_len_bounds delta). pose proof (varint_enc_len_bounds off).
  pose proof (enc_obytes_len (r_key r)). pose proof (enc_obytes_len (r_value r)).
  pose proof (varint_enc_len_bounds (Z.of_nat (List.length (r_headers r)))).
  pose proof (blen_nonneg (concat (map enc_hdr (r_headers r)))).
  u31. lia.
Qed.

Definition out_rec (h : bheader) (first : Z) (r : record) : orecord :=
  let lat := negb (Z.land (h_attrs h) TS_TYPE_MASK =? 0) in
  mkORec (h_base h + r_offset r)
         (if lat then h_max h else h_first h + (r_ts r - first))
         (if lat then 1 else 0) (r_key r) (r_value r) (r_headers r).

Lemma read_msg_frame h first r rest : valid_rec r -> 0 <= first <= INT64_MAX ->
  read_msg h (frame first r ++ rest) = Some (out_rec h first r, rest).
Proof.
  intros Hv Hf. pose proof Hv as (Hts & Hoff & Hb).
  destruct (valid_rec_parts r Hv) as (Hk & Hvl & Hh & Hn & Hc).
  assert (Hd : int64 (r_ts r - first)) by (u31; lia).
  pose proof (enc_body_len_bound (r_ts r - first) (r_offset r) r Hv) as Hlen.
  unfold read_msg, frame. cbv zeta. rewrite <- app_assoc.
  rewrite varint_dec_enc by (u31; lia). cbn [bind].
  set (body := enc_body (r_ts r - first) (r_offset r) r) in *.
  assert (Hbody : body ++ rest = 0 :: varint_enc (r_ts r - first) ++ varint_enc (r_offset r)
            ++ enc_obytes (r_key r) ++ enc_obytes (r_value r)
            ++ varint_enc (Z.of_nat (List.length (r_headers r)))
            ++ concat (map enc_hdr (r_headers r)) ++ rest).
  { subst body. unfold enc_body, enc_headers. rewrite <- !app_assoc. reflexivity. }
  rewrite Hbody at 1.
  (* the record's attributes byte 0 is read as a varint: by computation *)
  change (varint_dec (0 :: ?l)) with (Some (0, l)). cbn [bind].
  rewrite varint_dec_enc by exact Hd. cbn [bind].
  rewrite varint_dec_enc by (apply int64_of_small, Hoff). cbn [bind].
  rewrite dec_obytes_enc by exact Hk. cbn [bind].
  rewrite dec_obytes_enc by exact Hvl. cbn [bind].
  rewrite varint_dec_enc by (apply int64_of_small; lia). cbn [bind].
  replace (Z.of_nat (List.length (r_headers r)) <? 0) with false by lia.
  rewrite dec_headers_enc; [| exact Hh |].
  2:{ rewrite app_length. pose proof (concat_map_length enc_hdr (r_headers r) enc_hdr_nonempty). lia. }
  cbn [bind]. rewrite blen_app.
  replace (blen body + blen rest - blen rest =? blen body) with true by lia.
  reflexivity.
Qed.

Lemma frame_nonempty first r : (1 <= List.length (frame first r))%nat.
Proof.
  unfold frame. cbv zeta. rewrite app_length. unfold enc_body. cbn [app List.length]. lia.
Qed.

Lemma read_msgs_frames h first : forall acc fuel,
  Forall valid_rec acc -> 0 <= first <= INT64_MAX -> (List.length acc <= fuel)%nat ->
  read_msgs fuel h (Z.of_nat (List.length acc)) (concat (map (frame first) acc))
  = Some (map (out_rec h first) acc).
Proof.
  induction acc as [|r acc IH]; intros fuel Hv Hf Hfuel.
  - destruct fuel; reflexivity.
  - destruct fuel as [|fuel]; [cbn in Hfuel; lia|].
    inversion Hv as [|r' acc' Hr Hacc]; subst.
    cbn [read_msgs]. replace (Z.of_nat (List.length (r :: acc)) <=? 0) with false
      by (cbn [List.length]; lia).
    cbn [map concat]. rewrite read_msg_frame by assumption. cbn [bind].
    replace (Z.of_nat (List.length (r :: acc)) - 1) with (Z.of_nat (List.length acc))
      by (cbn [List.length]; lia).
    rewrite IH by (try assumption; cbn [List.length] in Hfuel; lia).
    reflexivity.
Qed.

Lemma take_s_be (n : nat) v r : (0 < n)%nat ->
  - (256 ^ Z.of_nat n / 2) <= v < 256 ^ Z.of_nat n / 2 ->
  take_s (Z.of_nat n) (be n v ++ r) = Some (v, r).
Proof.
  intros Hn Hv. unfold take_s. rewrite take_be. cbn [bind fst snd].
  rewrite signed_be_be by assumption. reflexivity.
Qed.
Lemma take_u_be (n : nat) v r : 0 <= v < 256 ^ Z.of_nat n ->
  take_u (Z.of_nat n) (be n v ++ r) = Some (v, r).
Proof.
  intros Hv. unfold take_u. rewrite take_be. cbn [bind fst snd].
  rewrite unsigned_be_small by assumption. reflexivity.
Qed.

Definition int8 (v : Z) : Prop := -128 <= v <= 127.

Lemma take_s8 v r : int64 v -> take_s 8 (be 8 v ++ r) = Some (v, r).
Proof. intros H. apply (take_s_be 8); [lia|]. u31. change (256 ^ Z.of_nat 8) with 18446744073709551616. lia. Qed.
Lemma take_s4 v r : int32 v -> take_s 4 (be 4 v ++ r) = Some (v, r).
Proof. intros H. apply (take_s_be 4); [lia|]. u31. change (256 ^ Z.of_nat 4) with 4294967296. lia. Qed.
Lemma take_s2 v r : int16 v -> take_s 2 (be 2 v ++ r) = Some (v, r).
Proof. intros H. apply (take_s_be 2); [lia|]. u31. change (256 ^ Z.of_nat 2) with 65536. lia. Qed.
Lemma take_s1 v r : int8 v -> take_s 1 (be 1 v ++ r) = Some (v, r).
Proof. intros H. apply (take_s_be 1); [lia|]. unfold int8 in H. change (256 ^ Z.of_nat 1) with 256. lia. Qed.
Lemma take_u4 v r : 0 <= v < 4294967296 -> take_u 4 (be 4 v ++ r) = Some (v, r).
Proof. intros H. apply (take_u_be 4). change (256 ^ Z.of_nat 4) with 4294967296. lia. Qed.

Lemma crc_region_len attrs last first mx pid pepoch bseq num payload :
  blen (crc_region attrs last first mx pid pepoch bseq num payload) = 40 + blen payload.
Proof. unfold crc_region. rewrite !blen_app, !be_blen. lia. Qed.

(* the Length field counts what follows it: leader epoch, magic and CRC (9 bytes), then the region *)
Lemma assemble_layout base epoch magic region :
  blen (assemble base epoch magic region) = 21 + blen region
  /\ slice 8 12 (assemble base epoch magic region) = be 4 (blen region + 9)
  /\ skipn 21 (assemble base epoch magic region) = region.
Proof.
  unfold assemble. split; [|split].
  - rewrite !blen_app, !be_blen. lia.
  - exact (slice_app_mid (be 8 base) (be 4 (blen region + 9)) _).
  - rewrite 4 app_assoc.
    exact (skipn_app_exact ((((be 8 base ++ be 4 _) ++ be 4 epoch) ++ be 1 magic) ++ be 4 _) region).
Qed.

Lemma fold_max_range rs : forall m, Forall valid_rec rs -> 0 <= m <= INT64_MAX ->
  0 <= fold_left (fun m x => Z.max m (r_ts x)) rs m <= INT64_MAX.
Proof.
  induction rs as [|r rs IH]; intros m H Hm; [exact Hm|].
  inversion H as [|r' a' (H0 & _) Hrs]; subst. cbn [fold_left]. apply IH; [assumption|lia].
Qed.

Lemma hdr_ts_range i acc : Forall valid_rec acc -> int64 (hdr_first i acc) /\ int64 (hdr_max i acc).
Proof.
  intros H. unfold hdr_first, hdr_max. destruct H as [|r acc (Hr & _) Hacc]; cbn [first_ts max_ts].
  - destruct i; cbn; u31; lia.
  - pose proof (fold_max_range acc (r_ts r) Hacc Hr). u31. lia.
Qed.

Lemma last_off_range acc : Forall valid_rec acc -> 0 <= last_off acc < TWO31.
Proof.
  intros H. unfold last_off. destruct (rev acc) as [|r l] eqn:E; [unfold TWO31; lia|].
  assert (In r acc) by (apply in_rev; rewrite E; left; reflexivity).
  rewrite Forall_forall in H. destruct (H r ltac:(assumption)) as (_ & Ho & _). exact Ho.
Qed.

(* base offset, leader epoch, attributes and maximal timestamp are free: the builder's or the
   broker's.  49 = 9 + the 40 bytes of the region before the payload; 61 = 21 + 40. *)
Lemma read_header_batch i c acc base epoch attrs mx payload :
  valid_cfg c -> Forall valid_rec acc -> Z.of_nat (List.length acc) < TWO31 ->
  int64 base -> int32 epoch -> int16 attrs -> int64 mx -> 61 + blen payload < TWO31 ->
  let region := crc_region attrs (last_off acc) (hdr_first i acc) mx (c_pid c) (c_pepoch c) (c_bseq c)
                           (Z.of_nat (List.length acc)) payload in
  read_header (assemble base epoch 2 region)
  = Some (mkH base (49 + blen payload) epoch 2 (crc32c region) attrs (last_off acc) (hdr_first i acc) mx
              (c_pid c) (c_pepoch c) (c_bseq c) (Z.of_nat (List.length acc)), payload).
Proof.
  intros (_ & _ & Hpid & Hpep & Hbseq) Hacc Hnum Hbase Hepoch Hattrs Hmx Hlen region.
  pose proof (last_off_range acc Hacc). destruct (hdr_ts_range i acc Hacc) as [Hf _].
  pose proof (blen_nonneg payload).
  assert (Hrl : blen region = 40 + blen payload) by apply crc_region_len.
  unfold assemble, read_header, bind. rewrite Hrl.
  rewrite take_s8 by assumption. cbv beta iota.
  rewrite take_s4 by (u31; lia). cbv beta iota.
  rewrite take_s4 by assumption. cbv beta iota.
  rewrite take_s1 by (unfold int8; lia). cbv beta iota.
  rewrite take_u4 by apply crc32c_range. cbv beta iota.
  unfold region at 1. unfold crc_region.
  rewrite take_s2 by assumption. cbv beta iota.
  rewrite take_s4 by (u31; lia). cbv beta iota.
  do 3 (rewrite take_s8 by assumption; cbv beta iota).
  rewrite take_s2 by assumption. cbv beta iota.
  rewrite take_s4 by assumption. cbv beta iota.
  rewrite take_s4 by (u31; lia). cbv beta iota.
  replace (40 + blen payload + 9) with (49 + blen payload) by lia. reflexivity.
Qed.

(* the state of either builder after accepting exactly [acc] *)
Definition state_of (acc : list record) : bstate :=
  mkB (region_of acc) (HEADER_SIZE + blen (region_of acc)) (first_ts acc) (max_ts acc) (last_off acc)
      (Z.of_nat (List.length acc)).

Lemma resize_exact n l : blen l = n -> resize n l = l.
Proof.
  intros H. unfold resize, blen in *. replace (Z.to_nat n) with (List.length l) by lia.
  rewrite firstn_all, Nat.sub_diag. cbn. apply app_nil_r.
Qed.

Lemma region_snoc acc r : region_of (acc ++ [r]) = region_of acc ++ frame (first_of acc r) r.
Proof.
  destruct acc as [|r0 acc]; cbn [region_of app first_of].
  - cbn [map concat]. apply app_nil_r.
  - change (r0 :: acc ++ [r]) with ((r0 :: acc) ++ [r]).
    rewrite map_app, concat_app. cbn [map concat]. rewrite app_nil_r. reflexivity.
Qed.

Lemma max_ts_snoc acc r :
  max_ts (acc ++ [r]) = Some (match max_ts acc with Some m => Z.max m (r_ts r) | None => r_ts r end).
Proof.
  destruct acc as [|r0 acc]; cbn [max_ts app]; [reflexivity|].
  rewrite fold_left_app. reflexivity.
Qed.

Lemma last_off_snoc acc r : last_off (acc ++ [r]) = r_offset r.
Proof. unfold last_off. rewrite rev_unit. reflexivity. Qed.

Lemma state_snoc acc r : state_of (acc ++ [r]) =
  let buf := region_of acc ++ frame (first_of acc r) r in
  mkB buf (HEADER_SIZE + blen buf) (Some (first_of acc r))
      (Some (match max_ts acc with Some m => Z.max m (r_ts r) | None => r_ts r end))
      (r_offset r) (Z.of_nat (List.length acc) + 1).
Proof.
  unfold state_of. rewrite region_snoc, max_ts_snoc, last_off_snoc, app_length. cbv zeta.
  f_equal; [destruct acc; reflexivity|cbn [List.length]; lia].
Qed.

Lemma s32_small x : 0 <= x < TWO31 -> s32 x = x.
Proof. unfold s32, TWO31. intros H. rewrite Z.mod_small by lia. lia. Qed.

Lemma frame_len first r : blen (frame first r)
  = blen (enc_body (r_ts r - first) (r_offset r) r) + varint_size (blen (enc_body (r_ts r - first) (r_offset r) r)).
Proof. unfold frame. cbv zeta. rewrite blen_app, varint_size_len. lia. Qed.

Lemma append_spec i c acc r : Forall valid_rec acc -> valid_rec r ->
  append i c (state_of acc) r =
  if refuses i c acc r then (state_of acc, None)
  else (state_of (acc ++ [r]), Some (mkMeta (r_offset r) (blen (frame (first_of acc r) r)) (r_ts r))).
Proof.
  intros Hacc Hr.
  assert (Hun : is_unset i (first_ts acc) = negb (nonempty acc)).
  { destruct Hacc as [|r0 acc (H0 & _) _]; destruct i; cbn [first_ts is_unset nonempty negb]; lia. }
  assert (Hd : (if negb (nonempty acc) then 0
                else r_ts r - match first_ts acc with Some t => t | None => 0 end)
               = r_ts r - first_of acc r).
  { destruct acc; cbn [nonempty negb first_ts first_of]; lia. }
  pose proof (frame_len (first_of acc r) r) as Hfr.
  rewrite state_snoc. unfold refuses, append, state_of.
  cbn [b_buf b_pos b_first b_max b_last b_num]. rewrite Hun, Hd, ?size_of_body_len.
  set (body := enc_body (r_ts r - first_of acc r) (r_offset r) r) in *.
  assert (Hfe : frame (first_of acc r) r = varint_enc (blen body) ++ body) by reflexivity.
  rewrite Hfe in *. set (fr := varint_enc (blen body) ++ body) in *.
  destruct i.
  - (* Python: the state with the first timestamp set, then the size check *)
    replace (blen body + varint_size (blen body) + (HEADER_SIZE + blen (region_of acc)))
      with (HEADER_SIZE + blen (region_of acc) + blen fr) by lia.
    rewrite negb_involutive, andb_comm.
    destruct (nonempty acc && _) eqn:E.
    + destruct acc; [discriminate E|]. reflexivity.
    + rewrite Hfr. destruct acc; cbn [nonempty negb b_buf b_first b_max b_num max_ts first_ts first_of];
        rewrite ?Z.max_id; reflexivity.
  - (* compiled: the size is computed beforehand and the buffer resized to it *)
    replace (HEADER_SIZE + blen (region_of acc) + (blen body + varint_size (blen body)))
      with (HEADER_SIZE + blen (region_of acc) + blen fr) by lia.
    destruct (negb (r_offset r =? 0) && _) eqn:E; [reflexivity|].
    rewrite resize_exact by (rewrite blen_app; unfold HEADER_SIZE; lia).
    rewrite Hfr, s32_small by apply Hr. cbv zeta. f_equal. f_equal.
    + rewrite blen_app. lia.
    + destruct acc; reflexivity.
    + destruct acc as [|r0 acc]; cbn [nonempty negb max_ts].
      * rewrite Z.ltb_irrefl. reflexivity.
      * destruct (_ <? r_ts r) eqn:E2; f_equal; lia.
Qed.

Lemma run_spec_cons i c acc r rs :
  let acc' := if refuses i c acc r then acc else acc ++ [r] in
  run_spec i c acc (r :: rs) =
  ((if refuses i c acc r then None
    else Some (mkMeta (r_offset r) (blen (frame (first_of acc r) r)) (r_ts r)))
   :: fst (run_spec i c acc' rs), snd (run_spec i c acc' rs)).
Proof.
  cbn [run_spec]. destruct (refuses i c acc r); destruct (run_spec i c _ rs); reflexivity.
Qed.

Lemma run_spec_inv i c (P : list record -> Prop) (Q : record -> Prop) :
  (forall acc r, P acc -> Q r -> refuses i c acc r = false -> P (acc ++ [r])) ->
  forall rs acc, Forall Q rs -> P acc -> P (snd (run_spec i c acc rs)).
Proof.
  intros Hstep. induction rs as [|r rs IH]; intros acc Hrs Hacc; [exact Hacc|].
  inversion Hrs as [|r' rs' Hr Hrs']; subst.
  rewrite run_spec_cons. cbn [snd]. apply IH; [exact Hrs'|].
  destruct (refuses i c acc r) eqn:E; [exact Hacc|apply Hstep; assumption].
Qed.

Lemma run_spec_valid i c rs acc :
  Forall valid_rec rs -> Forall valid_rec acc -> Forall valid_rec (snd (run_spec i c acc rs)).
Proof.
  apply (run_spec_inv i c (Forall valid_rec) valid_rec).
  intros acc' r Hacc Hr _. apply Forall_app. auto.
Qed.

Lemma run_spec_accepted i c : forall rs acc,
  snd (run_spec i c acc rs) = acc ++ accepted rs (fst (run_spec i c acc rs)).
Proof.
  induction rs as [|r rs IH]; intros acc; [symmetry; apply app_nil_r|].
  rewrite run_spec_cons. cbn [fst snd]. rewrite IH.
  destruct (refuses i c acc r); cbn [accepted]; [reflexivity|].
  rewrite <- app_assoc. reflexivity.
Qed.

Lemma appends_run i c : forall rs acc, Forall valid_rec acc -> Forall valid_rec rs ->
  appends i c (state_of acc) rs = (state_of (snd (run_spec i c acc rs)), fst (run_spec i c acc rs)).
Proof.
  induction rs as [|r rs IH]; intros acc Hacc Hrs; [reflexivity|].
  inversion Hrs as [|r' rs' Hr Hrs']; subst.
  rewrite run_spec_cons. cbn [appends fst snd]. rewrite append_spec by assumption.
  assert (Hacc' : Forall valid_rec (acc ++ [r])) by (apply Forall_app; auto).
  destruct (refuses i c acc r); rewrite IH by assumption; reflexivity.
Qed.

Lemma accepted_length rs : forall ms, (List.length (accepted rs ms) <= List.length rs)%nat.
Proof.
  induction rs as [|r rs IH]; intros ms; [cbn; lia|].
  destruct ms as [|[m|] ms]; cbn [accepted List.length]; [lia| |]; specialize (IH ms); lia.
Qed.

Lemma appends_init i c rs : Forall valid_rec rs ->
  let ms := snd (appends i c b_init rs) in
  fst (appends i c b_init rs) = state_of (accepted rs ms)
  /\ ms = fst (run_spec i c [] rs) /\ accepted rs ms = snd (run_spec i c [] rs)
  /\ Forall valid_rec (accepted rs ms).
Proof.
  intros Hrs. cbv zeta. change b_init with (state_of []).
  rewrite (appends_run i c rs [] (Forall_nil _) Hrs). cbn [fst snd].
  pose proof (run_spec_accepted i c rs []) as Hacc. cbn [app] in Hacc. rewrite <- Hacc.
  repeat split. apply run_spec_valid; [exact Hrs|constructor].
Qed.

(* the builder's attributes (codec <= 4, transactional bit 16: at most 20) with the broker's
   timestamp-type bit [l] and control bit [k] *)
Lemma attrs_bits c (use : bool) (l k : Z) : 0 <= c_codec c <= 4 -> l = 0 \/ l = 8 -> k = 0 \/ k = 32 ->
  let a := Z.lor (Z.lor (attributes c use) l) k in
  Z.land a CODEC_MASK = (if use then c_codec c else 0)
  /\ (Z.land a TS_TYPE_MASK =? 0) = (l =? 0)
  /\ (Z.land a TXN_MASK =? 0) = negb (c_txn c)
  /\ (Z.land a CONTROL_MASK =? 0) = (k =? 0)
  /\ 0 <= a <= 20 + l + k.
Proof.
  unfold attributes. destruct c as [magic codec txn pid pepoch bseq bsize]. cbn [c_codec c_txn].
  intros Hc Hl Hk.
  assert (Hcases : codec = 0 \/ codec = 1 \/ codec = 2 \/ codec = 3 \/ codec = 4) by lia.
  destruct Hcases as [->|[->|[->|[->| ->]]]]; destruct Hl as [-> | ->]; destruct Hk as [-> | ->];
    destruct use, txn; cbv; repeat split; congruence.
Qed.

Lemma build_state compress i c acc : 0 <= c_codec c <= 4 ->
  let data := region_of acc in
  let use := uses_codec compress i c data in
  build compress i c (state_of acc) =
  assemble 0 (-1) (c_magic c)
    (crc_region (attributes c use) (last_off acc) (hdr_first i acc) (hdr_max i acc)
                (c_pid c) (c_pepoch c) (c_bseq c) (Z.of_nat (List.length acc))
                (if use then compress (c_codec c) data else data)).
Proof.
  intros Hc. cbv zeta. unfold build, uses_codec, hdr_first, hdr_max, state_of.
  cbn [b_buf b_first b_max b_last b_num].
  change CODEC_MASK with (Z.ones 3). rewrite Z.land_ones, Z.mod_small by lia.
  destruct i; destruct (first_ts acc); reflexivity.
Qed.

Lemma build_header compress i c acc :
  Forall valid_rec acc -> valid_cfg c ->
  Z.of_nat (List.length acc) < TWO31 ->
  let b := build compress i c (state_of acc) in
  blen b < TWO31 ->
  let use := uses_codec compress i c (region_of acc) in
  let payload := if use then compress (c_codec c) (region_of acc) else region_of acc in
  let h := mkH 0 (blen b - 12) (-1) 2 (crc32c (skipn 21 b)) (attributes c use) (last_off acc)
               (hdr_first i acc) (hdr_max i acc) (c_pid c) (c_pepoch c) (c_bseq c)
               (Z.of_nat (List.length acc)) in
  read_header b = Some (h, payload)
  /\ blen b = 61 + blen payload /\ signed_be (slice 8 12 b) = blen b - 12.
Proof.
  intros Hacc Hc Hnum b Hlen use payload h. pose proof Hc as (Hmagic & Hcodec & _).
  pose proof (build_state compress i c acc Hcodec) as Hb. cbv zeta in Hb. rewrite Hmagic in Hb.
  fold use in Hb. fold payload b in Hb.
  set (region := crc_region _ _ _ _ _ _ _ _ payload) in Hb.
  destruct (assemble_layout 0 (-1) 2 region) as (Hl & Hs & Hk).
  rewrite <- Hb in Hl, Hs, Hk.
  assert (Hrl : blen region = 40 + blen payload) by apply crc_region_len.
  destruct (attrs_bits c use 0 0 Hcodec (or_introl eq_refl) (or_introl eq_refl)) as (_ & _ & _ & _ & Ha).
  cbv zeta in Ha. rewrite !Z.lor_0_r in Ha.
  destruct (hdr_ts_range i acc Hacc) as [_ Hm].
  pose proof (blen_nonneg payload).
  split; [|split; [lia|]].
  - subst h. replace (blen b - 12) with (49 + blen payload) by lia. rewrite Hk, Hb.
    apply read_header_batch;
      [assumption .. | u31; lia | u31; lia | u31; lia | exact Hm | u31; lia].
  - rewrite Hs, signed_be_be; [lia|lia|].
    change (256 ^ Z.of_nat 4) with 4294967296. u31. lia.
Qed.

Section WithCodec.
  Variable compress : Z -> bytes -> bytes.
  Variable decompress : Z -> bytes -> option bytes.
  Hypothesis codec_ok : forall c x, decompress c (compress c x) = Some x.
  Notation uses_codec := (uses_codec compress).

  (* what a consumer reads from the batch after the broker's stamping *)
  Lemma build_read i c s acc :
    Forall valid_rec acc -> valid_cfg c -> valid_stamp s ->
    Z.of_nat (List.length acc) < TWO31 ->
    let b := build compress i c (state_of acc) in
    blen b < TWO31 ->
    exists h', read_batch decompress (stamp s b) = Some (h', map (expect s) acc).
  Proof.
    intros Hacc Hc (Hbase & Hepoch & Hlat) Hnum b Hlen.
    destruct (build_header compress i c acc Hacc Hc Hnum Hlen) as (Hh & Hbl & _).
    fold b in Hh, Hbl. pose proof Hc as (_ & Hcodec & _).
    set (use := uses_codec i c (region_of acc)) in *.
    set (payload := if use then compress (c_codec c) (region_of acc) else region_of acc) in *.
    destruct (hdr_ts_range i acc Hacc) as [_ Hm].
    unfold stamp. rewrite Hh. cbn [h_attrs h_last h_first h_max h_pid h_pepoch h_bseq h_num h_magic].
    set (L := match s_lat s with Some _ => TS_TYPE_MASK | None => 0 end).
    set (K := if s_control s then CONTROL_MASK else 0).
    assert (HL : L = 0 \/ L = 8) by (subst L; destruct (s_lat s); [right|left]; reflexivity).
    assert (HK : K = 0 \/ K = 32) by (subst K; destruct (s_control s); [right|left]; reflexivity).
    destruct (attrs_bits c use L K Hcodec HL HK) as (Hb1 & Hb2 & _ & _ & Hb5). cbv zeta in Hb1, Hb2, Hb5.
    set (a' := Z.lor (Z.lor (attributes c use) L) K) in *.
    set (mx := match s_lat s with Some t => t | None => hdr_max i acc end).
    assert (Ha16 : int16 a') by (u31; lia).
    assert (Hmx : int64 mx) by (subst mx; destruct (s_lat s); [u31; lia|exact Hm]).
    assert (Hbase64 : int64 (s_base s)) by (u31; lia).
    unfold read_batch. rewrite read_header_batch; [|assumption ..|u31; lia].
    cbn [bind h_attrs h_num]. rewrite Hb1.
    assert (Hdata : (if (if use then c_codec c else 0) =? 0 then Some payload
                     else decompress (if use then c_codec c else 0) payload) = Some (region_of acc)).
    { subst payload. destruct use eqn:Eu; [|reflexivity].
      assert (c_codec c <> 0).
      { subst use. unfold uses_codec in Eu. destruct (c_codec c =? 0) eqn:E0; [discriminate|lia]. }
      replace (c_codec c =? 0) with false by lia. apply codec_ok. }
    rewrite Hdata. cbn [bind].
    set (h' := mkH (s_base s) _ _ _ _ _ _ _ _ _ _ _ _).
    assert (Hrd : read_msgs (S (List.length (region_of acc))) h' (Z.of_nat (List.length acc)) (region_of acc)
                  = Some (map (expect s) acc)).
    { destruct acc as [|r0 acc'] eqn:Eacc; [reflexivity|]. rewrite <- Eacc in *.
      assert (Hfirst : first_ts acc = Some (r_ts r0)) by (rewrite Eacc; reflexivity).
      assert (Hfr : 0 <= r_ts r0 <= INT64_MAX).
      { rewrite Eacc in Hacc. inversion Hacc as [|? ? (H0 & _) _]. exact H0. }
      replace (region_of acc) with (concat (map (frame (r_ts r0)) acc)) by (rewrite Eacc; cbn [region_of]; reflexivity).
      rewrite read_msgs_frames; try assumption.
      2:{ pose proof (concat_map_length (frame (r_ts r0)) acc (frame_nonempty _)). lia. }
      f_equal. apply map_ext. intros r. unfold out_rec, expect. subst h'. cbn [h_attrs h_base h_max h_first].
      rewrite Hb2. unfold hdr_first. rewrite ?Hfirst. cbn [first_ts]. subst L mx.
      destruct (s_lat s); cbn [Z.eqb negb]; f_equal; lia. }
    rewrite Hrd. cbn [bind]. eexists. reflexivity.
  Qed.
End WithCodec.

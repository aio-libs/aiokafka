(* C07_step.v — [step] of model/C07_Txn.v as a relation: what an event does to its instance, to the
   environment and to the ended transactions, the guards as propositions.  The invariants of C07_*.v are
   preserved by cases of [cstep].  [gstep] over-approximates [step]: the guards that no proof uses are left out
   (a proof that needs one adds the premise to the constructor and to its case of [step_inv]):
     AAccept        p <> GROUPP; for a new batch, no queued batch of the partition and a fresh batch id
     AComplete      the task is (KEnd, SApplied), or (KEnd, SPicked) with is_empty_c: kept is "some KEnd task"
     TPick          the slot is free; for TPick None also next_kind = None
     TDone          the slot is taken
     COffCommitted  the task is (KToc, SApplied)
     SDrain         the batch is the head of its partition, and the partition has nothing in flight
     SOk / SRetry / SFail in FATAL   the batch is one of the dead ones
     RAddParts      ps is non-empty and is, as a set, the first |ps| pending partitions
     RToc           items is, as a set, the head of the pending offsets (when refused: that there is a head)
     REndTxn        negb is_empty_c
     RProduce VNot  the batch exists. *)
From Coq Require Import ZArith List Bool Arith Lia.
From Verif Require Import Imp TxnTable C16_TxnApi C07_Txn.
Import ListNotations.

Lemma memn_In x l : memn x l = true <-> In x l.
Proof.
  unfold memn. rewrite existsb_exists. split.
  - intros (y & H & E). apply Nat.eqb_eq in E. subst. exact H.
  - intros H. exists x. split; [exact H | apply Nat.eqb_refl].
Qed.
Lemma is_niln_nil {A} (l : list A) : is_niln l = true -> l = [].
Proof. destruct l; [reflexivity | discriminate]. Qed.

Lemma skind_eqb_eq a b : skind_eqb a b = true -> a = b.
Proof. destruct a, b; simpl; intros; try discriminate; reflexivity. Qed.
Lemma slot_is_true c k st : slot_is c k st = true -> slot c = Some (k, st).
Proof.
  unfold slot_is. destruct (slot c) as [[k' st']|]; [|discriminate]. intros H.
  apply andb_prop in H. destruct H as [H1 H2]. apply skind_eqb_eq in H1. subst.
  destruct st, st'; simpl in H2; try discriminate; reflexivity.
Qed.

Lemma guard_some {A} (b : bool) (x : option A) y : (if b then x else None) = Some y -> b = true /\ x = Some y.
Proof. destruct b; [auto | discriminate]. Qed.

Lemma get_some s i c : get s i = Some c -> nth_error (clients s) i = Some c /\ alive c = true.
Proof.
  unfold get. destruct (nth_error (clients s) i) as [c0|]; [|discriminate].
  destruct (alive c0) eqn:A; intros H; inversion H; subst; auto.
Qed.
Lemma get_alive s i c : nth_error (clients s) i = Some c -> alive c = true -> get s i = Some c.
Proof. unfold get. intros -> ->. reflexivity. Qed.

Lemma set_nth_same {A} (l : list A) : forall i c, nth_error l i = Some c -> set_nth i c l = l.
Proof.
  induction l as [|y l IH]; intros [|i] c H; simpl in *; try discriminate.
  - inversion H. reflexivity.
  - rewrite (IH _ _ H). reflexivity.
Qed.

Inductive estep (en : env) : event -> env -> Prop :=
| es_fence (Es : est en = EOngoing) : estep en EFence (env_st en (EPrep false) (S (eep en)))
| es_markers cm (Es : est en = EPrep cm) :
    estep en EMarkers (mkE (EDone cm) (eep en) (einit en) (eissued en) [] (glog en ++ markers (eparts en) (eep en) cm)
                           None (edone en ++ [(eowner en, cm)]))
| es_initok ep (Es : est en = EEmpty \/ (exists cm, est en = EDone cm))
    (Ep : ep = if einit en then S (eep en) else eep en) :
    estep en EInitOk (mkE EEmpty ep true (ep :: eissued en) [] (glog en) None (edone en)).

(* the guard of EndTxn: flush_for_commit has returned, nothing waits to be registered, the result is the one the
   application asked for *)
Definition end_ready (c : client) (cm : bool) : Prop :=
  slot c = Some (KEnd, SPicked) /\ queue c = [] /\ inflight c = [] /\ pend_parts c = [] /\ pend_offs c = [] /\
  (cst c = COMMITTING /\ cm = true \/ cst c = ABORTING /\ cm = false).

Inductive noop (i : nat) (c : client) : event -> Prop :=
| no_pick : noop i c (TPick i None)
| no_ok b (St : cst c = FATAL) : noop i c (SOk i b)
| no_retry b (St : cst c = FATAL) : noop i c (SRetry i b)
| no_fail b (St : cst c = FATAL) : noop i c (SFail i b)
| no_produce b : noop i c (RProduce i b VNot).

(* the request of the picked task is answered without having been applied *)
Inductive refusal (i : nat) (c : client) : skind -> event -> Prop :=
| rf_parts ps : refusal i c KParts (RAddParts i ps VNot)
| rf_offs : refusal i c KOffs (RAddOffs i VNot)
| rf_toc items : refusal i c KToc (RToc i items VNot)
| rf_end cm (Er : end_ready c cm) : refusal i c KEnd (REndTxn i cm VNot).

(* event e takes instance i from c to c' and the environment from en to en'; with o = Some _ the current
   application transaction ends with that outcome.  The case analyses refer to the premises by their names. *)
Inductive cstep (i : nat) (en : env) (c : client) : event -> client -> env -> option outcome -> Prop :=
| cs_start ep (St : cst c = UNINIT) (Is : In ep (eissued en)) :
    cstep i en c (AStart i ep) (set_cep (set_cst c READY) ep)
          (mkE (est en) (eep en) (einit en) (remn ep (eissued en)) (eparts en) (glog en) (eowner en) (edone en)) None
| cs_begin (Sl : slot c = None) (St : cst c = READY) : cstep i en c (ABegin i) (new_txn c IN_TXN) en None
| cs_accept_new x p b (St : cst c = IN_TXN) :
    cstep i en c (AAccept i x p b true)
          (set_queue (set_parts (set_accepted c (accepted c ++ [(x, p)])) (txn_parts c)
                                (if memn p (txn_parts c) || memn p (pend_parts c) then pend_parts c
                                 else pend_parts c ++ [p]))
                     (queue c ++ [mkB b p (kcur c) [x] false false])) en None
| cs_accept_old x p b q (St : cst c = IN_TXN) (Sn : snoc_item p b x (queue c) = Some q) :
    cstep i en c (AAccept i x p b false) (set_queue (set_accepted c (accepted c ++ [(x, p)])) q) en None
| cs_offsets items (St : cst c = IN_TXN) :
    cstep i en c (AOffsets i items)
          (set_accepted (set_offs c (pend_offs c ++ [items])) (accepted c ++ pairs GROUPP items)) en None
| cs_committing (St : cst c = IN_TXN) : cstep i en c (ACommitting i) (set_cst c COMMITTING) en None
| cs_aborting (St : cst c = IN_TXN \/ cst c = ABORTABLE) : cstep i en c (AAborting i) (set_cst c ABORTING) en None
| cs_complete st o (Pp : pend_parts c = []) (Po : pend_offs c = []) (Qe : queue c = []) (Ie : inflight c = [])
    (Sl : slot c = Some (KEnd, st))
    (St : cst c = COMMITTING /\ o = OCommitted \/ cst c = ABORTING /\ o = OAborted) :
    cstep i en c (AComplete i) (set_deadb (set_grp (set_parts (set_cst c READY) [] (pend_parts c)) false) []) en
          (Some o)
| cs_error k st (Sl : slot c = Some (k, st)) (Nk : k <> KEnd)
    (St : cst c = IN_TXN \/ cst c = COMMITTING \/ cst c = ABORTING)
    (Mu : forall b, In b (queue c) -> ~ In (bpart b) (pend_parts c)) :
    cstep i en c (AError i) (c_err c ABORTABLE) en None
| cs_fatal (St : cst c <> UNINIT) : cstep i en c (AFatal i) (c_clear c FATAL) en None
| cs_kill : cstep i en c (AKill i) (set_alive c false) en None
| cs_pick k (Nx : next_kind c = Some k) :
    cstep i en c (TPick i (Some k)) (set_slot c (Some (k, SPicked))) en None
| cs_done : cstep i en c (TDone i) (set_slot c None) en None
| cs_part_added p (Sl : slot c = Some (KParts, SApplied)) (Ip : In p (pend_parts c)) (Ir : In p (creq c)) :
    cstep i en c (CPartAdded i p) (set_parts c (addn p (txn_parts c)) (remn p (pend_parts c))) en None
| cs_group_added (Sl : slot c = Some (KOffs, SApplied)) : cstep i en c (CGroupAdded i) (set_grp c true) en None
| cs_off_committed x items rest (It : In x (ctoc c)) (Po : pend_offs c = items :: rest) (Ix : In x items) :
    cstep i en c (COffCommitted i x)
          (set_offs c (if is_niln (remn x items) then rest else remn x items :: rest)) en None
| cs_drain b x q (Tk : take_bid b (queue c) = Some (x, q)) (Mu : ~ In (bpart x) (pend_parts c))
    (St : cst c <> FATAL) :
    cstep i en c (SDrain i b)
          (set_inflight (set_queue c q) (inflight c ++ [mkB (bid x) (bpart x) (btag x) (bitems x) true (bapp x)]))
          en None
| cs_ok b x f (Tk : take_bid b (inflight c) = Some (x, f)) (Ba : bapp x = true) :
    cstep i en c (SOk i b) (set_inflight c f) en None
| cs_retry b x f (Tk : take_bid b (inflight c) = Some (x, f)) :
    cstep i en c (SRetry i b) (set_queue (set_inflight c f) (x :: queue c)) en None
| cs_fail_inflight b x f (Tk : take_bid b (inflight c) = Some (x, f)) :
    cstep i en c (SFail i b) (set_lostb (set_deadb (set_inflight c f) (deadb c ++ [x])) true) en None
| cs_fail_queue b x q (Tk : take_bid b (queue c) = Some (x, q)) :
    cstep i en c (SFail i b) (set_lostb (set_queue c q) true) en None
| cs_noop e (No : noop i c e) : cstep i en c e c en None
| cs_refused k e (Sl : slot c = Some (k, SPicked)) (Rf : refusal i c k e) :
    cstep i en c e (set_slot c (Some (k, SNotApplied))) en None
| cs_add_parts ps (Sl : slot c = Some (KParts, SPicked)) (Ep : cep c = eep en) (Np : not_prep en = true) :
    cstep i en c (RAddParts i ps VApplied)
          (set_creq (set_cowned (set_slot c (Some (KParts, SApplied))) (cowned c || negb (owner_is en (tagof i c)))) ps)
          (env_add en ps (tagof i c)) None
| cs_add_offs (Sl : slot c = Some (KOffs, SPicked)) (Ep : cep c = eep en) (Np : not_prep en = true) :
    cstep i en c (RAddOffs i VApplied)
          (set_cowned (set_slot c (Some (KOffs, SApplied))) (cowned c || negb (owner_is en (tagof i c))))
          (env_add en [GROUPP] (tagof i c)) None
| cs_toc items hd rest (Sl : slot c = Some (KToc, SPicked)) (Po : pend_offs c = hd :: rest) (Ep : cep c = eep en) :
    cstep i en c (RToc i items VApplied)
          (set_ctoc (set_capp (set_slot c (Some (KToc, SApplied))) (capp c ++ pairs GROUPP items)) items)
          (env_append en GROUPP (Data (cep c) (tagof i c) items)) None
| cs_end cm en' (Er : end_ready c cm) (Ep : cep c = eep en)
    (Es : est en = EOngoing /\ en' = env_st en (EPrep cm) (eep en) \/ est en = EDone cm /\ en' = en) :
    cstep i en c (REndTxn i cm VApplied)
          (set_cend (set_deadb (set_csent (set_slot c (Some (KEnd, SApplied))) (csent c || cm)) []) true) en' None
| cs_produce b x r
    (Tk : take_bid b (inflight c ++ match cst c with FATAL => deadb c | _ => [] end) = Some (x, r))
    (Ep : cep c = eep en) :
    cstep i en c (RProduce i b VApplied)
          (set_capp (set_inflight c (mark_app b (inflight c))) (capp c ++ pairs (bpart x) (bitems x)))
          (env_append en (bpart x) (Data (cep c) (i, btag x) (bitems x))) None.

(* the cases of [cstep] that the event of CS admits *)
Ltac cstep_cases CS := inversion CS; subst; try (inversion No); try (inversion Rf); subst.

(* the process may be gone: AKill, and the last Produce request of a dead process *)
Definition anytime (e : event) : Prop := match e with AKill _ | RProduce _ _ _ => True | _ => False end.

(* the ended transactions after an event of instance i with outcome o *)
Definition fin (i : nat) (c : client) (o : option outcome) (ed : list (tag * outcome * list (nat * nat))) :=
  match o with Some o => ed ++ [(tagof i c, o, accepted c)] | None => ed end.

Inductive gstep (s : gstate) (e : event) : gstate -> Prop :=
| gs_env en' (ES : estep (genv s) e en') : gstep s e (put_env s en')
| gs_client i c c' en' o (Hc : nth_error (clients s) i = Some c) (Al : alive c = true \/ anytime e)
    (CS : cstep i (genv s) c e c' en' o) : gstep s e (mkG (set_nth i c' (clients s)) en' (fin i c o (ended s))).

Lemma get_step s i e s' (k : client -> option gstate) :
  match get s i with Some c => k c | None => None end = Some s' ->
  (forall c, (forall c' en' o, cstep i (genv s) c e c' en' o ->
                               gstep s e (mkG (set_nth i c' (clients s)) en' (fin i c o (ended s)))) ->
             k c = Some s' -> gstep s e s') ->
  gstep s e s'.
Proof.
  intros H F. destruct (get s i) as [c|] eqn:Hg; [|discriminate]. destruct (get_some _ _ _ Hg) as (Hn & Ha).
  apply (F c); [|exact H]. intros c' en' o. exact (gs_client s e i c c' en' o Hn (or_introl Ha)).
Qed.

Lemma with_client_step s i f e s' :
  with_client s i f = Some s' -> (forall c c', f c = Some c' -> cstep i (genv s) c e c' (genv s) None) -> gstep s e s'.
Proof.
  unfold with_client. intros H F. apply (get_step _ _ _ _ _ H). intros c GS K.
  destruct (f c) as [c'|] eqn:Hf; [|discriminate]. injection K as <-. exact (GS _ _ None (F _ _ Hf)).
Qed.

(* the answer to a batch that is no longer in flight: only after fatal_error *)
Lemma dead_reply c (b : nat) c' :
  match cst c with FATAL => if has_bid b (deadb c) then Some c else None | _ => None end = Some c' ->
  cst c = FATAL /\ c' = c.
Proof. destruct (cst c); try discriminate. destruct (has_bid b (deadb c)); [|discriminate]. intros [= <-]. auto. Qed.

(* the translated transition table (C16_TxnApi.trans) enters the C07 proofs here, and in the cases of [step_inv]
   that compute [trans (cst c) _] after [destruct (cst c)] *)
Lemma trans_abortable s : trans s ABORTABLE = Some ABORTABLE.
Proof. destruct s; reflexivity. Qed.
Lemma trans_fatal s : trans s FATAL = Some FATAL.
Proof. destruct s; reflexivity. Qed.

Lemma step_inv s e s' : step s e = Some s' -> gstep s e s'.
Proof.
  (* [cbv beta iota zeta] selects the branch of the event and leaves [with_client], [get] and the guards
     folded, which [simpl] would not *)
  intros H. destruct e; unfold step in H; cbv beta iota zeta in H.
  (* the events of the form [with_client s i f]: what f does to the instance c; the other events of a live
     instance: what the event does with c *)
  all: try first [ apply (with_client_step _ _ _ _ _ H); intros c c' Hf
                 | apply (get_step _ _ _ _ _ H); clear H; intros c GS H ].
  - (* EFence *) destruct (est (genv s)) eqn:Es; try discriminate. injection H as <-. apply gs_env, es_fence, Es.
  - (* EMarkers *) destruct (est (genv s)) eqn:Es; try discriminate. injection H as <-. apply gs_env, es_markers, Es.
  - (* EInitOk *)
    destruct (est (genv s)) eqn:Es; try discriminate; injection H as <-; apply gs_env; apply es_initok; eauto.
  - (* AStart *)
    destruct (cst c) eqn:S; try discriminate. simpl in H. apply guard_some in H as (M & [= <-]). apply memn_In in M.
    exact (GS _ _ None (cs_start _ _ _ ep S M)).
  - (* ABegin *)
    destruct (slot c) eqn:Sl; [discriminate|]. destruct (cst c) eqn:S; try discriminate. injection Hf as <-.
    apply cs_begin; assumption.
  - (* AAccept *)
    destruct (cst c) eqn:S; try discriminate. destruct (Nat.eqb p GROUPP); [discriminate|].
    destruct newb.
    + destruct (_ || _); [discriminate|]. injection Hf as <-. apply cs_accept_new; assumption.
    + destruct (snoc_item p b x (queue c)) eqn:Q; [|discriminate]. injection Hf as <-. apply cs_accept_old; assumption.
  - (* AOffsets *)
    destruct (cst c) eqn:S; try discriminate. injection Hf as <-. apply cs_offsets, S.
  - (* ACommitting *)
    destruct (cst c) eqn:S; try discriminate. injection Hf as <-. apply cs_committing, S.
  - (* AAborting *)
    destruct (cst c) eqn:S; try discriminate; injection Hf as <-; apply cs_aborting; auto.
  - (* AComplete *)
    apply guard_some in H as (G & H). rewrite !andb_true_iff in G. destruct G as ((((G1 & G2) & G3) & G4) & G5).
    apply is_niln_nil in G1, G2, G3, G4.
    assert (exists st, slot c = Some (KEnd, st)) as (st & Sl).
    { apply orb_prop in G5. destruct G5 as [G5|G5]; [|apply andb_prop in G5; destruct G5 as [G5 _]];
        apply slot_is_true in G5; eauto. }
    destruct (cst c) eqn:S; try discriminate; injection H as <-;
      refine (GS _ _ (Some _) (cs_complete _ _ _ st _ G1 G2 G3 G4 Sl _)); auto.
  - (* AError *)
    destruct (slot c) as [[k st]|] eqn:Sl; [|discriminate].
    assert (K : k <> KEnd /\ (cst c = IN_TXN \/ cst c = COMMITTING \/ cst c = ABORTING) /\
                (if forallb (fun b => negb (memn (bpart b) (pend_parts c))) (queue c)
                 then match trans (cst c) ABORTABLE with Some t => Some (c_err c t) | None => None end
                 else None) = Some c').
    { destruct k; destruct (cst c); try discriminate; (split; [discriminate|]); auto. }
    destruct K as (Nk & St & K). apply guard_some in K as (F & K). rewrite trans_abortable in K. injection K as <-.
    apply (cs_error _ _ _ _ _ Sl Nk St). intros b Hb Hp. rewrite forallb_forall in F. specialize (F b Hb).
    apply memn_In in Hp. rewrite Hp in F. discriminate.
  - (* AFatal *)
    rewrite trans_fatal in Hf. destruct (tcode (cst c) =? 1)%Z eqn:U; [discriminate|]. injection Hf as <-.
    apply cs_fatal. intros K. rewrite K in U. discriminate.
  - (* AKill *)
    destruct (nth_error (clients s) i) as [c|] eqn:Hn; [|discriminate]. injection H as <-.
    exact (gs_client s (AKill i) i c _ _ None Hn (or_intror I) (cs_kill _ _ _)).
  - (* TPick *)
    destruct (slot c); [discriminate|]. destruct k as [k|], (next_kind c) as [k2|] eqn:N; try discriminate.
    + apply guard_some in Hf as (E & [= <-]). apply skind_eqb_eq in E. subst k2. apply cs_pick, N.
    + injection Hf as <-. apply cs_noop, no_pick.
  - (* TDone *)
    destruct (slot c); [|discriminate]. injection Hf as <-. apply cs_done.
  - (* CPartAdded *)
    apply guard_some in Hf as (G & [= <-]). rewrite !andb_true_iff in G. destruct G as ((G1 & G2) & G3).
    apply cs_part_added; [apply slot_is_true | apply memn_In ..]; assumption.
  - (* CGroupAdded *)
    apply guard_some in Hf as (G & [= <-]). apply cs_group_added, slot_is_true, G.
  - (* COffCommitted *)
    apply guard_some in Hf as (G & Hf). apply andb_prop in G as (_ & G).
    destruct (pend_offs c) as [|items rest] eqn:P; [discriminate|]. apply guard_some in Hf as (M & [= <-]).
    apply (cs_off_committed _ _ _ _ items rest); [apply memn_In; exact G | exact P | apply memn_In; exact M].
  - (* SDrain *)
    destruct (take_bid b (queue c)) as [[x q]|] eqn:T; [|discriminate].
    destruct (head_of (bpart x) (queue c)); [|discriminate]. apply guard_some in Hf as (G & [= <-]).
    rewrite !andb_true_iff, !negb_true_iff in G. destruct G as (((_ & G1) & _) & G2).
    apply (cs_drain _ _ _ _ _ _ T).
    + intros K. apply memn_In in K. congruence.
    + intros K. rewrite K in G2. discriminate.
  - (* SOk *)
    destruct (take_bid b (inflight c)) as [[x f]|] eqn:T.
    + apply guard_some in Hf as (B & [= <-]). exact (cs_ok _ _ _ _ _ _ T B).
    + apply dead_reply in Hf as (F & ->). apply cs_noop, no_ok, F.
  - (* SRetry *)
    destruct (take_bid b (inflight c)) as [[x f]|] eqn:T.
    + injection Hf as <-. exact (cs_retry _ _ _ _ _ _ T).
    + apply dead_reply in Hf as (F & ->). apply cs_noop, no_retry, F.
  - (* SFail *)
    destruct (take_bid b (inflight c)) as [[x f]|] eqn:T.
    + injection Hf as <-. exact (cs_fail_inflight _ _ _ _ _ _ T).
    + destruct (take_bid b (queue c)) as [[x q]|] eqn:T2.
      * injection Hf as <-. exact (cs_fail_queue _ _ _ _ _ _ T2).
      * apply dead_reply in Hf as (F & ->). apply cs_noop, no_fail, F.
  - (* RAddParts *)
    apply guard_some in H as (G & H). apply andb_prop in G as (G & _). apply andb_prop in G as (G & _).
    apply slot_is_true in G. destruct v.
    + apply guard_some in H as (G2 & [= <-]). apply andb_prop in G2 as (E & N). apply Nat.eqb_eq in E.
      exact (GS _ _ None (cs_add_parts _ _ _ ps G E N)).
    + injection H as <-. exact (GS _ _ None (cs_refused _ _ _ _ _ G (rf_parts _ _ ps))).
  - (* RAddOffs *)
    apply guard_some in H as (G & H). apply slot_is_true in G. destruct v.
    + apply guard_some in H as (G2 & [= <-]). apply andb_prop in G2 as (E & N). apply Nat.eqb_eq in E.
      exact (GS _ _ None (cs_add_offs _ _ _ G E N)).
    + injection H as <-. exact (GS _ _ None (cs_refused _ _ _ _ _ G (rf_offs _ _))).
  - (* RToc *)
    destruct (pend_offs c) as [|hd rest] eqn:P; [discriminate|].
    apply guard_some in H as (G & H). apply andb_prop in G as (G & _). apply slot_is_true in G. destruct v.
    + apply guard_some in H as (E & [= <-]). apply Nat.eqb_eq in E.
      exact (GS _ _ None (cs_toc _ _ _ items hd rest G P E)).
    + injection H as <-. exact (GS _ _ None (cs_refused _ _ _ _ _ G (rf_toc _ _ items))).
  - (* REndTxn *)
    apply guard_some in H as (G & H). rewrite !andb_true_iff in G.
    destruct G as ((((((G & G1) & G2) & G3) & G4) & _) & G5).
    apply slot_is_true in G. apply is_niln_nil in G1, G2, G3, G4.
    assert (R : end_ready c commit).
    { repeat (split; [assumption|]). destruct (cst c), commit; try discriminate; auto. }
    destruct v.
    + apply guard_some in H as (E & H). apply Nat.eqb_eq in E.
      destruct (est (genv s)) as [| |cm|cm] eqn:Es; try discriminate.
      * injection H as <-.
        exact (GS _ _ None (cs_end _ _ _ commit _ R E (or_introl (conj Es eq_refl)))).
      * apply guard_some in H as (B & [= <-]). apply eqb_prop in B. subst cm.
        exact (GS _ _ None (cs_end _ _ _ commit _ R E (or_intror (conj Es eq_refl)))).
    + injection H as <-.
      exact (GS _ _ None (cs_refused _ _ _ _ _ G (rf_end _ _ commit R))).
  - (* RProduce *)
    destruct (nth_error (clients s) i) as [c|] eqn:Hn; [|discriminate].
    destruct (take_bid b _) as [[x r]|] eqn:T; [|discriminate]. destruct v.
    + apply guard_some in H as (E & [= <-]). apply Nat.eqb_eq in E.
      exact (gs_client s (RProduce i b VApplied) i c _ _ None Hn (or_intror I) (cs_produce _ _ _ b x r T E)).
    + injection H as <-. pose proof (gs_client s (RProduce i b VNot) i c _ _ None Hn (or_intror I) (cs_noop _ _ _ _ (no_produce i c b))) as K.
      simpl in K. rewrite (set_nth_same _ _ _ Hn) in K. destruct s. exact K.
Qed.

Lemma nth_set_nth_eq {A} (l : list A) : forall i c c', nth_error l i = Some c -> nth_error (set_nth i c' l) i = Some c'.
Proof.
  induction l as [|y l IH]; intros [|i] c c' H; simpl in *; try discriminate; auto.
  eapply IH; eauto.
Qed.
Lemma nth_set_nth_neq {A} (l : list A) : forall i j c', i <> j -> nth_error (set_nth i c' l) j = nth_error l j.
Proof.
  induction l as [|y l IH]; intros [|i] [|j] c' H; simpl; auto; try congruence.
Qed.
Lemma Forall_set_nth {A} (P : A -> Prop) (l : list A) : forall i c', Forall P l -> P c' -> Forall P (set_nth i c' l).
Proof.
  induction l as [|y l IH]; intros [|i] c' H Hc; simpl; auto; inversion H; subst; constructor; auto.
Qed.

Lemma step_clients (P : client -> Prop) :
  (forall i en c e c' en' o, cstep i en c e c' en' o -> P c -> P c') ->
  forall s e s', step s e = Some s' -> Forall P (clients s) -> Forall P (clients s').
Proof.
  intros F s e s' H G. destruct (step_inv _ _ _ H); simpl; [exact G|].
  apply Forall_set_nth; [exact G|]. apply (F _ _ _ _ _ _ _ CS). rewrite Forall_forall in G. apply G.
  eapply nth_error_In; eauto.
Qed.
Lemma clients_g0 (P : client -> Prop) n : P client0 -> Forall P (clients (g0 n)).
Proof. intros H. apply Forall_forall. intros c K. apply repeat_spec in K. subst. exact H. Qed.
Lemma Forall_In {A} (P : A -> Prop) l x : Forall P l -> In x l -> P x.
Proof. intros F. rewrite Forall_forall in F. apply F. Qed.
Lemma Forall_nth_error {A} (P : A -> Prop) l i c : Forall P l -> nth_error l i = Some c -> P c.
Proof. intros F H. apply (Forall_In _ _ _ F). eapply nth_error_In; eauto. Qed.

Lemma run_clients (P : client -> Prop) :
  (forall i en c e c' en' o, cstep i en c e c' en' o -> P c -> P c') ->
  forall tr s s', run s tr = Some s' -> Forall P (clients s) -> Forall P (clients s').
Proof.
  intros F. induction tr as [|e tr IH]; intros s s' H G; simpl in H.
  - injection H as <-. exact G.
  - destruct (step s e) as [s1|] eqn:S; [|discriminate]. apply (IH _ _ H). exact (step_clients P F _ _ _ S G).
Qed.
Lemma run_g0_clients (P : client -> Prop) :
  (forall i en c e c' en' o, cstep i en c e c' en' o -> P c -> P c') -> P client0 ->
  forall n tr s, run (g0 n) tr = Some s -> Forall P (clients s).
Proof. intros F P0 n tr s H. apply (run_clients P F _ _ _ H), clients_g0, P0. Qed.

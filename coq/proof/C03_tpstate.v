(* C03_tpstate.v — the position-keeping methods of TopicPartitionState as translated from source
   (gen/TpStateGen.v): invariant, when their assertions hold, and how the consumer model of
   model/C03_Fetcher.v is related to them ([tp_rel], [tp_method]). *)
From Coq Require Import ZArith List Bool Lia.
From Verif Require Import C03_TpState TpStateGen C03_Fetcher.
Import ListNotations.
Open Scope Z_scope.
Import TpStateGen.

(* AWAITING_RESET <-> no position; CONSUMING <-> a position and no pending reset strategy.  The third status,
   UNASSIGNED, is set by no translated method and is outside the invariant. *)
Definition tps_inv (t : tps) : Prop :=
  (t_status t = AWAITING_RESET /\ t_position t = None) \/
  (t_status t = CONSUMING /\ (exists p, t_position t = Some p) /\ t_reset t = None).

Lemma tps_init_inv : tps_inv tps_init.
Proof. left. split; reflexivity. Qed.

Lemma await_reset_inv t k t' : await_reset_py t k = Some t' -> tps_inv t'.
Proof. intros [= <-]. left. split; reflexivity. Qed.
Lemma seek_inv t o t' : seek_py t o = Some t' -> tps_inv t'.
Proof. intros [= <-]. right. cbn. repeat split; eauto. Qed.
Lemma reset_to_inv t o t' : reset_to_py t o = Some t' -> tps_inv t'.
Proof.
  unfold reset_to_py. destruct (t_status t =? 0); [|discriminate]. intros [= <-].
  right. cbn. repeat split; eauto.
Qed.
Lemma consumed_to_inv t o t' : tps_inv t -> consumed_to_py t o = Some t' -> tps_inv t'.
Proof.
  unfold consumed_to_py. intros I. destruct (t_status t =? 1) eqn:E; [|discriminate].
  intros [= <-]. apply Z.eqb_eq in E. right. cbn.
  destruct I as [[Hs _]|[_ [_ Hr]]]; [unfold AWAITING_RESET in Hs; lia|]. repeat split; eauto.
Qed.
Lemma pause_inv t t' : tps_inv t -> pause_py t = Some t' -> tps_inv t'.
Proof. intros I [= <-]. exact I. Qed.
Lemma resume_inv t t' : tps_inv t -> resume_py t = Some t' -> tps_inv t'.
Proof. intros I [= <-]. exact I. Qed.

(* the assertions: reset_to needs "no position", consumed_to needs "a position" *)
Lemma reset_to_defined t o : tps_inv t -> (reset_to_py t o <> None <-> t_position t = None).
Proof.
  unfold reset_to_py. intros [[Hs Hp]|[Hs [[p Hp] _]]]; rewrite Hs; cbn; rewrite Hp; split; try discriminate; congruence.
Qed.
Lemma consumed_to_defined t o : tps_inv t -> (consumed_to_py t o <> None <-> t_position t <> None).
Proof.
  unfold consumed_to_py. intros [[Hs Hp]|[Hs [[p Hp] _]]]; rewrite Hs; cbn; rewrite Hp; split; try discriminate; congruence.
Qed.

(* the consumer model keeps the position and the pause flag of the source object *)
Definition tp_rel (s : st) (t : tps) : Prop := t_position t = pos s /\ t_paused t = paused s.

(* the method an event of the model stands for ([strategy]: the reset strategy passed to await_reset): None for an event
   that stands for no method, Some None when the method's assertion fails *)
Definition tp_method (strategy : Z) (e : ev) (t : tps) : option (option tps) :=
  match e with
  | Seek o => Some (seek_py t o)
  | SeekReset => Some (await_reset_py t strategy)
  | ResetTo o => Some (reset_to_py t o)
  | Pause => Some (pause_py t)
  | Resume => Some (resume_py t)
  | _ => None
  end.

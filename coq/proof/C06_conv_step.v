(* What the step cases of the quiet-period model share: dead members, the ids a member is bound to, frames, orphan
   counts, and the three lemmas the cases go through, [stage_move], [stage_all] and [local_step]. *)
From Coq Require Import ZArith List Bool Arith Lia.
From Verif Require Import DispatchActs HeartbeatDispatch JoinRetryDispatch JoinDispatch SyncDispatch CommitDispatch
  C06_Converge C06_conv_lib C06_conv_refl C06_conv_abs C06_conv_checks.
Import ListNotations.
Local Open Scope nat_scope.

(* dead members are invisible *)
Lemma dead_trivial : forall c m, m_live m = false ->
  wf_m c m = true /\ coh c m = true /\ tw c m = 0 /\ mp c m = 0 /\ settled c m = true.
Proof.
  intros c m L. unfold wf_m, coh, tw, mp, settled, wf_a, coh_a, tw_a, mp_a, settled_a, cls_a, absm. pcbn. rewrite L.
  repeat split; reflexivity.
Qed.

(* what a change of the coordinator must keep of a member: by the checked table if it is live, for free if not *)
Lemma member_keeps : forall c c' m m', m_live m' = m_live m ->
  (m_live m = true -> keeps (absm c m) (absm c' m') = true) ->
  wf_m c' m' = true /\ coh c' m' = true /\ tw c' m' <= tw c m.
Proof.
  intros c c' m m' E H. destruct (m_live m) eqn:L.
  - destruct (good_parts _ _ 0 None (H eq_refl)) as (_ & A & B & C & _). repeat split; [exact A | exact B | unfold tw; lia].
  - destruct (dead_trivial c' m' E) as (A & B & T & _). rewrite T. repeat split; [exact A | exact B | lia].
Qed.

(* ... and a member that sees the coordinator as before *)
Lemma member_framed : forall c c' m, wf_m c m = true -> coh c m = true -> (m_live m = true -> absm c' m = absm c m) ->
  wf_m c' m = true /\ coh c' m = true /\ tw c' m = tw c m /\ mp c' m = mp c m.
Proof.
  intros c c' m W C H. destruct (m_live m) eqn:L.
  - unfold wf_m, coh, tw, mp. rewrite (H eq_refl). auto.
  - destruct (dead_trivial c m L) as (_ & _ & T & M & _). destruct (dead_trivial c' m L) as (A & B & T' & M' & _).
    rewrite T, M, T', M'. auto.
Qed.

Record inv_facts (c : coord) (ms : list member) : Prop := {
  iv_wfc : wf_c c = true;
  iv_wfm : forall m, In m ms -> wf_m c m = true;
  iv_coh : forall m, In m ms -> coh c m = true;
  iv_names : NoDup (map m_name ms);
  iv_disj : pairwise disjoint_m ms = true }.
Lemma inv_unpack : forall c ms, inv_b (mkS c ms) = true -> inv_facts c ms.
Proof.
  intros c ms H. unfold inv_b in H. cbn [s_c s_ms] in H.
  apply andb_true_iff in H; destruct H as [H A5]. apply andb_true_iff in H; destruct H as [H A4].
  apply andb_true_iff in H; destruct H as [H A3]. apply andb_true_iff in H; destruct H as [A1 A2].
  rewrite forallb_forall in A2, A3. apply nodupb_NoDup in A4. constructor; assumption.
Qed.
Lemma inv_pack : forall c ms, inv_facts c ms -> inv_b (mkS c ms) = true.
Proof.
  intros c ms [A1 A2 A3 A4 A5]. unfold inv_b. cbn [s_c s_ms]. rewrite A1, A5.
  assert (forallb (wf_m c) ms = true) as -> by (apply forallb_forall; exact A2).
  assert (forallb (coh c) ms = true) as -> by (apply forallb_forall; exact A3).
  apply nodupb_NoDup in A4. rewrite A4. reflexivity.
Qed.

Lemma inv_move : forall c ms m mv a' dk r, inv_facts c ms -> In m ms -> m_live m = true ->
  apost (absm c m) mv = Some (a', dk, r) -> good (absm c m) a' dk r = true.
Proof.
  intros c ms m mv a' dk r H Hin L. apply (member_move c m (wf_cw_of_wf c (iv_wfc _ _ H)) L (iv_wfm _ _ H m Hin) (iv_coh _ _ H m Hin)).
Qed.

Lemma bound_spec : forall m x, x <> 0 -> (bound m x = true <-> m_live m = true /\ (m_id m = x \/ focus_of m = x)).
Proof.
  intros m x Hx. unfold bound, focus_of. split.
  - intros H. apply andb_true_iff in H. destruct H as [L H]. split; [exact L|].
    apply orb_true_iff in H. destruct H as [H|H]; [left; apply Nat.eqb_eq; exact H|].
    apply andb_true_iff in H. destruct H as [P F]. right. rewrite P. apply Nat.eqb_eq. exact F.
  - intros [L [H|H]]; rewrite L; cbn [andb]; apply orb_true_iff.
    + left. apply Nat.eqb_eq. exact H.
    + right. destruct (ph_eqb (m_ph m) PJoinSent); [apply Nat.eqb_eq; exact H | congruence].
Qed.
Lemma bound_nj : forall m x, m_ph m <> PJoinSent -> bound m x = m_live m && (m_id m =? x).
Proof. intros m x H. unfold bound. destruct (m_ph m); try congruence; cbn [ph_eqb andb]; rewrite orb_false_r; reflexivity. Qed.

Definition disj (a b : member) : Prop := forall x, x <> 0 -> bound a x = true -> bound b x = true -> False.

Lemma disjoint_m_disj : forall a b, disjoint_m a b = true <-> disj a b.
Proof.
  intros a b. unfold disjoint_m. split.
  - intros H x Hx Ba Bb. destruct (proj1 (bound_spec a x Hx) Ba) as [La Ha]. apply Nat.eqb_neq in Hx.
    rewrite La in H. cbn [negb] in H. rewrite orb_false_r in H. apply andb_true_iff in H. destruct H as [H1 H2].
    destruct Ha as [E|E]; rewrite E, Bb, Hx in *; discriminate.
  - intros H. destruct (m_live a) eqn:La; [|apply orb_true_r]. cbn [negb]. rewrite orb_false_r.
    assert (K : forall x, x = m_id a \/ x = focus_of a -> bound b x && negb (x =? 0) = false).
    { intros x Hx. destruct (Nat.eqb_spec x 0) as [|N]; [apply andb_false_r|]. destruct (bound b x) eqn:B; [|reflexivity]. exfalso.
      apply (H x N); [|exact B]. apply bound_spec; [exact N|]. split; [exact La|]. destruct Hx; [left | right]; congruence. }
    rewrite andb_true_r, (K _ (or_introl eq_refl)), (K _ (or_intror eq_refl)). reflexivity.
Qed.

Lemma pairwise_all : forall ms, pairwise disjoint_m ms = true -> NoDup (map m_name ms) ->
  forall a b, In a ms -> In b ms -> m_name a <> m_name b -> disj a b.
Proof.
  induction ms as [|h r IH]; intros H ND a b Ha Hb Hn; [inversion Ha|].
  cbn [pairwise] in H. apply andb_true_iff in H. destruct H as [H1 H2]. rewrite forallb_forall in H1.
  cbn [map] in ND. inversion ND as [|? ? _ ND']; subst.
  destruct Ha as [<-|Ha], Hb as [<-|Hb].
  - congruence.
  - apply disjoint_m_disj. apply H1. exact Hb.
  - intros x Hx Ba Bh. exact (proj1 (disjoint_m_disj h a) (H1 a Ha) x Hx Bh Ba).
  - apply (IH H2 ND' a b Ha Hb Hn).
Qed.

Lemma pairwise_of_all : forall ms, (forall a b, In a ms -> In b ms -> m_name a <> m_name b -> disj a b) ->
  NoDup (map m_name ms) -> pairwise disjoint_m ms = true.
Proof.
  induction ms as [|h r IH]; intros H ND; [reflexivity|]. cbn [pairwise]. cbn [map] in ND. inversion ND as [|? ? Hnot ND']; subst.
  apply andb_true_iff. split.
  - apply forallb_forall. intros b Hb. apply disjoint_m_disj. apply H; [left; reflexivity | right; exact Hb|].
    intro E. apply Hnot. rewrite E. apply in_map. exact Hb.
  - apply IH; [|exact ND']. intros a b Ha Hb Hn. apply H; [right; exact Ha | right; exact Hb | exact Hn].
Qed.

(* frames: a change of the coordinator's table at the id x0 only is invisible to a member not bound to x0 *)
Definition agree_off (x0 : nat) (c c' : coord) : Prop :=
  c_st c' = c_st c /\ c_gen c' = c_gen c /\
  forall z, z <> x0 -> memb z (ids (c_ents c')) = memb z (ids (c_ents c)) /\ memb z (c_pend c') = memb z (c_pend c)
                       /\ ent_jp c' z = ent_jp c z /\ ent_sp c' z = ent_sp c z.
Lemma absm_frame : forall x0 c c' m, agree_off x0 c c' -> x0 <> 0 -> m_live m = true -> bound m x0 = false -> absm c' m = absm c m.
Proof.
  intros x0 c c' m (Hst & Hg & H) Hx L Hn.
  assert (Hz : forall z, z = m_id m \/ z = focus_of m -> z <> x0).
  { intros z Hz E. subst z. rewrite (proj2 (bound_spec m x0 Hx)) in Hn; [discriminate|]. split; [exact L|]. destruct Hz; [left | right]; congruence. }
  destruct (H _ (Hz _ (or_introl eq_refl))) as (A1 & A2 & A3 & A4). destruct (H _ (Hz _ (or_intror eq_refl))) as (B1 & B2 & B3 & B4).
  unfold absm. rewrite Hst, Hg. cbv zeta. rewrite A1, A2, A3, A4, B1, B2, B3, B4. reflexivity.
Qed.

Lemma ids_set_jp : forall x v es, ids (set_jp x v es) = ids es.
Proof. intros. unfold ids, set_jp. rewrite map_map. apply map_ext. intros e. destruct (e_id e =? x); reflexivity. Qed.
Lemma ids_set_sp : forall x v es, ids (set_sp x v es) = ids es.
Proof. intros. unfold ids, set_sp. rewrite map_map. apply map_ext. intros e. destruct (e_id e =? x); reflexivity. Qed.
Lemma ids_clear_jp : forall es, ids (clear_jp es) = ids es.
Proof. intros. unfold ids, clear_jp. rewrite map_map. reflexivity. Qed.
Lemma ids_clear_sp : forall es, ids (clear_sp es) = ids es.
Proof. intros. unfold ids, clear_sp. rewrite map_map. reflexivity. Qed.
Lemma ids_app : forall a b, ids (a ++ b) = ids a ++ ids b.
Proof. intros. unfold ids. apply map_app. Qed.

Lemma memb_app : forall x a b, memb x (a ++ b) = memb x a || memb x b.
Proof. intros. unfold memb. apply existsb_app. Qed.
Lemma memb_remove_other : forall x y l, x <> y -> memb x (remove_id y l) = memb x l.
Proof.
  intros x y l H. induction l as [|a r IH]; [reflexivity|]. unfold remove_id, memb in *. cbn [filter].
  destruct (Nat.eqb_spec a y) as [E|E]; cbn [negb existsb].
  - rewrite IH. subst a. destruct (Nat.eqb_spec x y); [contradiction | reflexivity].
  - cbn [existsb]. rewrite IH. reflexivity.
Qed.
Lemma memb_remove_same : forall y l, memb y (remove_id y l) = false.
Proof.
  intros y l. induction l as [|a r IH]; [reflexivity|]. unfold remove_id, memb in *. cbn [filter].
  destruct (Nat.eqb_spec a y) as [E|E]; cbn [negb existsb]; [exact IH|].
  cbn [existsb]. rewrite IH. destruct (Nat.eqb_spec y a); [congruence | reflexivity].
Qed.

Definition flag_of (fl : entry -> bool) (x : nat) (es : list entry) : bool :=
  match find_ent x es with Some e => fl e | None => false end.
Lemma ent_jp_flag : forall c x, ent_jp c x = flag_of e_jp x (c_ents c). Proof. reflexivity. Qed.
Lemma ent_sp_flag : forall c x, ent_sp c x = flag_of e_sp x (c_ents c). Proof. reflexivity. Qed.

Lemma find_ent_map : forall (g : entry -> entry) x es, (forall e, e_id (g e) = e_id e) ->
  find_ent x (map g es) = option_map g (find_ent x es).
Proof.
  intros g x es Hg. induction es as [|e r IH]; [reflexivity|]. unfold find_ent in *. cbn [map find]. rewrite Hg.
  destruct (e_id e =? x); [reflexivity | exact IH].
Qed.
Lemma find_ent_id : forall x es e, find_ent x es = Some e -> e_id e = x.
Proof. intros x es e H. unfold find_ent in H. apply find_some in H. destruct H as [_ H]. apply Nat.eqb_eq. exact H. Qed.

Lemma find_ent_memb : forall y es, memb y (ids es) = match find_ent y es with Some _ => true | None => false end.
Proof.
  intros y es. induction es as [|e r IH]; [reflexivity|]. unfold memb, ids, find_ent in *. cbn [map existsb find].
  rewrite (Nat.eqb_sym y (e_id e)). destruct (e_id e =? y); [reflexivity | exact IH].
Qed.

Lemma flag_set_jp : forall x v y es,
  flag_of e_jp y (set_jp x v es) = (if (y =? x) && memb y (ids es) then v else flag_of e_jp y es)
  /\ flag_of e_sp y (set_jp x v es) = flag_of e_sp y es.
Proof.
  intros x v y es. unfold flag_of, set_jp. rewrite find_ent_map, find_ent_memb; [|intros e; destruct (e_id e =? x); reflexivity].
  destruct (find_ent y es) as [e|] eqn:F; cbn [option_map]; [|rewrite andb_false_r; split; reflexivity].
  rewrite (find_ent_id _ _ _ F), andb_true_r. destruct (y =? x); split; reflexivity.
Qed.
Lemma flag_set_sp : forall x v y es,
  flag_of e_sp y (set_sp x v es) = (if (y =? x) && memb y (ids es) then v else flag_of e_sp y es)
  /\ flag_of e_jp y (set_sp x v es) = flag_of e_jp y es.
Proof.
  intros x v y es. unfold flag_of, set_sp. rewrite find_ent_map, find_ent_memb; [|intros e; destruct (e_id e =? x); reflexivity].
  destruct (find_ent y es) as [e|] eqn:F; cbn [option_map]; [|rewrite andb_false_r; split; reflexivity].
  rewrite (find_ent_id _ _ _ F), andb_true_r. destruct (y =? x); split; reflexivity.
Qed.
Lemma flag_clear : forall y es,
  flag_of e_jp y (clear_jp es) = false /\ flag_of e_sp y (clear_jp es) = flag_of e_sp y es
  /\ flag_of e_sp y (clear_sp es) = false /\ flag_of e_jp y (clear_sp es) = flag_of e_jp y es.
Proof.
  intros y es. unfold flag_of, clear_jp, clear_sp. rewrite !find_ent_map; try (intros; reflexivity).
  destruct (find_ent y es); repeat split; reflexivity.
Qed.
Lemma find_ent_app : forall x a b, find_ent x (a ++ b) = match find_ent x a with Some e => Some e | None => find_ent x b end.
Proof.
  intros x a b. unfold find_ent. induction a as [|e r IH]; [reflexivity|]. cbn [app find]. destruct (e_id e =? x); [reflexivity | exact IH].
Qed.
Lemma flag_app_new : forall (fl : entry -> bool) y es e, memb (e_id e) (ids es) = false ->
  flag_of fl y (es ++ [e]) = if y =? e_id e then fl e else flag_of fl y es.
Proof.
  intros fl y es e H. unfold flag_of. rewrite find_ent_app. destruct (find_ent y es) as [e0|] eqn:F.
  - destruct (Nat.eqb_spec y (e_id e)) as [E|E]; [|reflexivity]. rewrite find_ent_memb, <- E, F in H. discriminate.
  - unfold find_ent. cbn [find]. rewrite (Nat.eqb_sym (e_id e) y). destruct (y =? e_id e); reflexivity.
Qed.

Definition orph (ms : list member) (x : nat) : bool := negb (existsb (fun m => bound m x) ms).
Lemma count_orphans_ids : forall c ms, count_orphans (mkS c ms) = length (filter (orph ms) (ids (c_ents c))).
Proof.
  intros c ms. unfold count_orphans. cbn [s_c s_ms]. induction (c_ents c) as [|e r IH]; [reflexivity|].
  cbn [filter ids map]. unfold orphan at 1. fold (orph ms (e_id e)). destruct (orph ms (e_id e)); cbn [length]; unfold ids in IH; rewrite IH; reflexivity.
Qed.

Lemma count_le_lost : forall (P P' Q : nat -> bool) l,
  (forall x, In x l -> P' x = true -> P x = true \/ Q x = true) ->
  length (filter P' l) <= length (filter P l) + length (filter Q l).
Proof.
  intros P P' Q l. induction l as [|a r IH]; intros H; [cbn; lia|].
  assert (IH' : length (filter P' r) <= length (filter P r) + length (filter Q r)) by (apply IH; intros; apply H; [right|]; assumption).
  cbn [filter]. destruct (P' a) eqn:Ea.
  - destruct (H a (or_introl eq_refl) Ea) as [E|E]; rewrite E; cbn [length]; destruct (P a), (Q a); cbn [length]; lia.
  - destruct (P a), (Q a); cbn [length]; lia.
Qed.

Lemma count_two : forall (Q : nat -> bool) l y z, NoDup l -> (forall x, In x l -> Q x = true -> x = y \/ x = z) ->
  length (filter Q l) <= (if Q y && memb y l then 1 else 0) + (if Q z && memb z l && negb (z =? y) then 1 else 0).
Proof.
  intros Q l y z ND H.
  set (L := (if Q y && memb y l then [y] else []) ++ (if Q z && memb z l && negb (z =? y) then [z] else [])).
  assert (HL : length L = (if Q y && memb y l then 1 else 0) + (if Q z && memb z l && negb (z =? y) then 1 else 0)).
  { unfold L. rewrite app_length. destruct (Q y && memb y l), (Q z && memb z l && negb (z =? y)); reflexivity. }
  rewrite <- HL. apply NoDup_incl_length; [apply NoDup_filter; exact ND|].
  intros x Hx. apply filter_In in Hx. destruct Hx as [Hin Qx]. unfold L. apply in_or_app.
  assert (Mx : memb x l = true) by (apply memb_In; exact Hin).
  destruct (H x Hin Qx) as [E|E]; subst x.
  - left. rewrite Qx, Mx. left. reflexivity.
  - destruct (Nat.eqb_spec z y) as [E|E].
    + subst z. left. rewrite Qx, Mx. left. reflexivity.
    + right. rewrite Qx, Mx. left. reflexivity.
Qed.

(* [mu] is lexicographic: triggers and coordinator rank ([t * 4 + e]) weigh more than the sum [S] of the potentials, which
   stays below the factor [B] *)
Lemma mu_cmp : forall t t' e e' B S S', S' < B -> t' * 4 + e' < t * 4 + e -> (t' * 4 + e') * B + S' < (t * 4 + e) * B + S.
Proof.
  intros t t' e e' B S S' HS H. assert ((t' * 4 + e' + 1) * B <= (t * 4 + e) * B) by (apply Nat.mul_le_mono_r; lia). lia.
Qed.
(* same coordinator rank *)
Lemma mu_cmp_same : forall t t' e B S S' k, S' < B -> t' <= t -> S' + k <= S -> (t' * 4 + e) * B + S' + k <= (t * 4 + e) * B + S.
Proof.
  intros t t' e B S S' k HB Ht HS. destruct (Nat.eq_dec t' t) as [->|Hn]; [lia|].
  assert ((t' * 4 + e) * B + S' < (t * 4 + e) * B + 0) by (apply mu_cmp; [exact HB | lia]). lia.
Qed.

Lemma tw_a_le : forall a, tw_a a <= 2.
Proof. intros a. unfold tw_a. destruct (cls_a a); try lia. destruct (a_st a); try lia; apply if_le; lia. Qed.
Lemma tw_le_2 : forall c m, wf_c c = true -> wf_m c m = true -> tw c m <= 2.
Proof. intros c m _ _. apply tw_a_le. Qed.

(* the weight 64 of the coordinator-knowledge potential exceeds the rest; the whole stays below the factor 1024 of [mu] *)
Lemma mp_a_le : forall a, mp_a a <= 1023.
Proof.
  intros a. destruct (a_live a) eqn:L; [|unfold mp_a; rewrite L; lia]. rewrite (mp_parts a L).
  assert (C : ckp_a a <= 1 + 3 + 3 + 3).
  { unfold ckp_a. cbv zeta. repeat apply Nat.add_le_mono; [destruct (a_ck a); lia | | |]; repeat apply if_le; lia. }
  pose proof (rest_lt_64 a). lia.
Qed.
Lemma sum_mp_bound : forall c ms, sum (map (mp c) ms) < 1024 * S (length ms).
Proof.
  intros c ms. assert (sum (map (mp c) ms) <= 1023 * length ms) by (apply sum_map_bound; intros m _; apply mp_a_le).
  lia.
Qed.

Lemma bcast_fields : forall evs m, m_live (bcast evs m) = m_live m /\ m_id (bcast evs m) = m_id m /\ m_ph (bcast evs m) = m_ph m
  /\ m_focus (bcast evs m) = m_focus m /\ m_name (bcast evs m) = m_name m /\ m_gen (bcast evs m) = m_gen m.
Proof.
  intros evs. induction evs as [|e r IH]; intros m; [repeat split; reflexivity|]. unfold bcast in *. cbn [fold_left].
  destruct (IH (bcast1 m e)) as (A & B & C & D & E & F). rewrite A, B, C, D, E, F.
  destruct e; cbn [bcast1]; [destruct (waiting_sync m) | destruct (waiting_join m) | destruct (waiting_sync m)]; repeat split; reflexivity.
Qed.
Lemma bcast_bound : forall evs m0 x, bound (bcast evs m0) x = bound m0 x.
Proof. intros evs m0 x. destruct (bcast_fields evs m0) as (A & B & C & D & _). unfold bound. rewrite A, B, C, D. reflexivity. Qed.
Lemma map_bcast_nil : forall ms, map (bcast []) ms = ms.
Proof. intros ms. rewrite <- (map_id ms) at 2. apply map_ext. intros; reflexivity. Qed.

Lemma pairwise_bcast : forall evs ms, pairwise disjoint_m (map (bcast evs) ms) = pairwise disjoint_m ms.
Proof.
  intros evs ms.
  assert (Hd : forall a b, disjoint_m (bcast evs a) (bcast evs b) = disjoint_m a b).
  { intros a b. destruct (bcast_fields evs a) as (A1 & A2 & A3 & A4 & _). unfold disjoint_m, focus_of. rewrite !bcast_bound, A1, A2, A3, A4. reflexivity. }
  induction ms as [|a r IH]; [reflexivity|]. cbn [map pairwise]. rewrite IH. f_equal.
  clear IH. induction r as [|b r IH]; [reflexivity|]. cbn [map forallb]. rewrite IH, Hd. reflexivity.
Qed.
Lemma orphans_bcast : forall c evs ms, count_orphans (mkS c (map (bcast evs) ms)) = count_orphans (mkS c ms).
Proof.
  intros c evs ms. rewrite !count_orphans_ids. f_equal. apply filter_ext. intros z. unfold orph. f_equal.
  induction ms as [|a r IH]; [reflexivity|]. cbn [map existsb]. rewrite bcast_bound, IH. reflexivity.
Qed.

(* orphans after a step of member [i]: new ids of the table are bound by it, and an old id is newly orphaned only
   if [i] was bound to it and is not any more *)
Definition dkc (c : coord) (m m' : member) : nat :=
  length (filter (fun x => bound m x && negb (bound m' x)) (ids (c_ents c))).
Lemma dkc_zero : forall c m m', (forall x, bound m x = true -> bound m' x = true) -> dkc c m m' = 0.
Proof.
  intros c m m' H. unfold dkc. induction (ids (c_ents c)) as [|x r IH]; [reflexivity|]. cbn [filter].
  destruct (bound m x) eqn:B; [rewrite (H x B)|]; cbn [negb andb]; exact IH.
Qed.

Lemma orphans_updm : forall c c' ms i m F extra, NoDup (map m_name ms) -> getm i ms = Some m ->
  ids (c_ents c') = ids (c_ents c) ++ extra -> (forall x, In x extra -> bound (F m) x = true) ->
  count_orphans (mkS c' (updm i F ms)) <= count_orphans (mkS c ms) + dkc c m (F m).
Proof.
  intros c c' ms i m F extra ND G Hids Hex. destruct (getm_In i ms m G) as [Hin Hn].
  rewrite !count_orphans_ids. cbn [s_c s_ms]. rewrite Hids, filter_app, app_length.
  assert (Hg : forall m0 x, In m0 ms -> bound (if m_name m0 =? i then F m0 else m0) x = true -> orph (updm i F ms) x = false).
  { intros m0 x H0 B. unfold orph. apply negb_false_iff. apply existsb_exists. eexists. split; [apply in_map; exact H0 | exact B]. }
  assert (E : forall ex, (forall x, In x ex -> bound (F m) x = true) -> filter (orph (updm i F ms)) ex = []).
  { induction ex as [|x r IH]; intros Hx; [reflexivity|]. cbn [filter].
    rewrite (Hg m x Hin); [apply IH; intros z Hz; apply Hx; right; exact Hz|]. rewrite Hn, Nat.eqb_refl. apply Hx. left. reflexivity. }
  rewrite (E extra Hex). cbn [length]. rewrite Nat.add_0_r. apply count_le_lost. intros x _ Ho.
  destruct (orph ms x) eqn:Eo; [left; reflexivity | right]. unfold orph in Eo. apply negb_false_iff in Eo.
  apply existsb_exists in Eo. destruct Eo as [m0 [H0 B]]. pose proof (Hg m0 x H0) as Hg0.
  destruct (Nat.eqb_spec (m_name m0) i) as [En|En]; [|rewrite (Hg0 B) in Ho; discriminate].
  rewrite (getm_unique i ms m ND G m0 H0 En) in *. rewrite B. destruct (bound (F m) x); [rewrite (Hg0 eq_refl) in Ho; discriminate | reflexivity].
Qed.

Lemma dkc_le : forall c m m' li lf, wf_c c = true -> m_live m = true ->
  (bound m' (m_id m) = false -> li = true) -> (m_ph m = PJoinSent -> bound m' (m_focus m) = false -> lf = true) ->
  dkc c m m' <= dk_of (absm c m) li lf.
Proof.
  intros c m m' li lf Hc L Hli Hlf. pose proof (wf_c_parts c Hc) as Wc. unfold dkc.
  set (Q := fun x => bound m x && negb (bound m' x)).
  assert (H0 : forall x, In x (ids (c_ents c)) -> x <> 0).
  { intros x Hx E. subst x. apply memb_In in Hx. rewrite (wc_0e c Wc) in Hx. discriminate. }
  pose proof (count_two Q (ids (c_ents c)) (m_id m) (focus_of m) (proj1 (nodupb_NoDup _) (wc_nodup c Wc))) as H.
  assert (Hq : forall x, In x (ids (c_ents c)) -> Q x = true -> x = m_id m \/ x = focus_of m).
  { intros x Hx Hq. unfold Q in Hq. apply andb_true_iff in Hq. destruct Hq as [Hb _].
    apply (bound_spec m x (H0 x Hx)) in Hb. destruct Hb as [_ [E|E]]; [left | right]; congruence. }
  specialize (H Hq). unfold dk_of, absm. pcbn.
  assert (T1 : (if Q (m_id m) && memb (m_id m) (ids (c_ents c)) then 1 else 0)
               <= (if li && negb (m_id m =? 0) && memb (m_id m) (ids (c_ents c)) then 1 else 0)).
  { destruct (Q (m_id m) && memb (m_id m) (ids (c_ents c))) eqn:E; [|lia]. apply andb_true_iff in E. destruct E as [E1 E2].
    unfold Q in E1. apply andb_true_iff in E1. destruct E1 as [_ E1]. apply negb_true_iff in E1. rewrite (Hli E1), E2.
    destruct (Nat.eqb_spec (m_id m) 0) as [Ez|Ez]; [rewrite Ez, (wc_0e c Wc) in E2; discriminate | cbn; lia]. }
  assert (T2 : (if Q (focus_of m) && memb (focus_of m) (ids (c_ents c)) && negb (focus_of m =? m_id m) then 1 else 0)
               <= (if lf && ph_eqb (m_ph m) PJoinSent && memb (focus_of m) (ids (c_ents c)) && negb (focus_of m =? m_id m) then 1 else 0)).
  { destruct (Q (focus_of m) && memb (focus_of m) (ids (c_ents c)) && negb (focus_of m =? m_id m)) eqn:E; [|lia].
    apply andb_true_iff in E. destruct E as [E E3]. apply andb_true_iff in E. destruct E as [E1 E2].
    unfold Q in E1. apply andb_true_iff in E1. destruct E1 as [_ E1]. apply negb_true_iff in E1.
    assert (P : ph_eqb (m_ph m) PJoinSent = true).
    { unfold focus_of in E2. destruct (ph_eqb (m_ph m) PJoinSent); [reflexivity | rewrite (wc_0e c Wc) in E2; discriminate]. }
    assert (P' : m_ph m = PJoinSent) by (destruct (m_ph m); try discriminate; reflexivity).
    assert (Ef : focus_of m = m_focus m) by (unfold focus_of; rewrite P; reflexivity).
    rewrite Ef in E1. rewrite (Hlf P' E1), E2, E3, P. cbn. lia. }
  lia.
Qed.

Lemma others_unbound : forall c ms i m x, inv_facts c ms -> getm i ms = Some m -> x <> 0 -> bound m x = true ->
  forall m0, In m0 ms -> m_name m0 <> i -> bound m0 x = false.
Proof.
  intros c ms i m x Hinv G Hx B m0 H0 Hn. destruct (getm_In i ms m G) as [Hin Hnm].
  destruct (bound m0 x) eqn:B0; [exfalso | reflexivity].
  apply (pairwise_all ms (iv_disj _ _ Hinv) (iv_names _ _ Hinv) m m0 Hin H0) with (x := x); [congruence | assumption..].
Qed.

(* disjointness after a step of member [i] from [m] to [m']: an id it becomes bound to was its own, or nobody else's *)
Definition gains_free (ms : list member) (i : nat) (m m' : member) : Prop :=
  forall x, x <> 0 -> bound m' x = true -> bound m x = true \/ (forall m0, In m0 ms -> m_name m0 <> i -> bound m0 x = false).

Lemma disj_updm : forall c ms i m F, inv_facts c ms -> getm i ms = Some m ->
  (forall m0, m_name (F m0) = m_name m0) -> gains_free ms i m (F m) ->
  pairwise disjoint_m (updm i F ms) = true.
Proof.
  intros c ms i m F Hinv G Hn Hids. pose proof Hinv as [_ _ _ Hnd Hdj].
  assert (Hfree : forall x, x <> 0 -> bound (F m) x = true -> forall m0, In m0 ms -> m_name m0 <> i -> bound m0 x = false).
  { intros x Hx B. destruct (Hids x Hx B) as [Bm|Hf]; [exact (others_unbound c ms i m x Hinv G Hx Bm) | exact Hf]. }
  apply pairwise_of_all; [|rewrite (updm_names i F ms Hn); exact Hnd].
  intros a b Ha Hb Hab. apply in_updm in Ha. apply in_updm in Hb.
  destruct Ha as [a0 [Ha0 [[Ena ->]|[Ena ->]]]], Hb as [b0 [Hb0 [[Enb ->]|[Enb ->]]]].
  - exfalso. apply Hab. rewrite !Hn. congruence.
  - rewrite (getm_unique i ms m Hnd G a0 Ha0 Ena). intros x Hx Ba Bb. rewrite (Hfree x Hx Ba b0 Hb0 Enb) in Bb. discriminate.
  - rewrite (getm_unique i ms m Hnd G b0 Hb0 Enb). intros x Hx Ba Bb. rewrite (Hfree x Hx Bb a0 Ha0 Ena) in Ba. discriminate.
  - apply (pairwise_all ms Hdj Hnd); assumption.
Qed.

(* the invariant with [wf_cw] for [wf_c]: what holds of the intermediate coordinators of a request (table edited,
   _prepare_rebalance, _complete_join) *)
Record stage (c : coord) (ms : list member) : Prop := {
  sg_c : wf_cw c;
  sg_m : forall m, In m ms -> wf_m c m = true /\ coh c m = true;
  sg_names : NoDup (map m_name ms);
  sg_disj : pairwise disjoint_m ms = true }.
Lemma stage_of_inv : forall c ms, inv_facts c ms -> stage c ms.
Proof. intros c ms [A B C D E]. constructor; [apply wf_cw_of_wf; exact A | auto | exact D | exact E]. Qed.
Lemma inv_of_stage : forall c ms, stage c ms -> wf_c c = true -> inv_facts c ms.
Proof. intros c ms [A B C D] W. constructor; [exact W | apply B | apply B | exact C | exact D]. Qed.

(* member [i] moves by [F] while the coordinator goes from [c] to [c'] and broadcasts [evs]: [i] by a row of the checked
   table ([dk], [r] are that row's: the entries it may stop being bound to, and what is asked of its potential), every
   other live member kept.  [extra]: the ids the table gains, all bound by [i] afterwards, so no new orphan; [k]: what
   is left of [dk] once the entries [i] did let go of ([dkc]) are paid for - the triggers go down by that much *)
Lemma stage_move : forall c c' ms i m F evs dk r extra k,
  inv_facts c ms -> getm i ms = Some m -> (forall m0, m_name (F m0) = m_name m0) -> wf_cw c' ->
  good (absm c m) (absm c' (bcast evs (F m))) dk r = true ->
  (forall m0, In m0 ms -> m_name m0 <> i -> m_live m0 = true -> keeps (absm c m0) (absm c' (bcast evs m0)) = true) ->
  gains_free ms i m (F m) ->
  ids (c_ents c') = ids (c_ents c) ++ extra -> (forall x, In x extra -> bound (F m) x = true) -> dkc c m (F m) + k <= dk ->
  stage c' (map (bcast evs) (updm i F ms))
  /\ trig (mkS c' (map (bcast evs) (updm i F ms))) + k <= trig (mkS c ms).
Proof.
  intros c c' ms i m F evs dk r extra k Hinv G Hn Wc' Hgood Hoth Hids Hext Hexb Hk.
  pose proof (iv_names _ _ Hinv) as Hnd. destruct (getm_In i ms m G) as [Hin Hname].
  set (g := fun m0 => bcast evs (if m_name m0 =? i then F m0 else m0)).
  assert (Eg : map (bcast evs) (updm i F ms) = map g ms) by (unfold updm; rewrite map_map; reflexivity).
  destruct (good_parts _ _ _ _ Hgood) as (_ & W' & C' & Htw & _).
  assert (Hm : forall m0, In m0 ms -> wf_m c' (g m0) = true /\ coh c' (g m0) = true
                                      /\ tw c' (g m0) + (if m_name m0 =? i then dk else 0) <= tw c m0).
  { intros m0 H0. unfold g. destruct (Nat.eqb_spec (m_name m0) i) as [E|E].
    - rewrite (getm_unique i ms m Hnd G m0 H0 E). auto.
    - rewrite Nat.add_0_r. apply member_keeps; [apply bcast_fields | exact (Hoth m0 H0 E)]. }
  split.
  - constructor.
    + exact Wc'.
    + intros m' H'. rewrite Eg in H'. apply in_map_iff in H'. destruct H' as [m0 [<- H0]]. destruct (Hm m0 H0) as (A & B & _). auto.
    + rewrite map_map, (map_ext (fun m0 => m_name (bcast evs m0)) m_name), (updm_names i F ms Hn); [exact Hnd|].
      intros m0. apply bcast_fields.
    + rewrite pairwise_bcast. exact (disj_updm c ms i m F Hinv G Hn Hids).
  - unfold trig. cbn [s_c s_ms].
    assert (sum (map (tw c') (map (bcast evs) (updm i F ms))) + dk <= sum (map (tw c) ms)).
    { rewrite Eg. apply (sum_map_updm (tw c) (tw c') i g ms m dk Hnd G).
      - intros m0 H0 E. destruct (Hm m0 H0) as (_ & _ & T). apply Nat.eqb_neq in E. rewrite E in T. lia.
      - destruct (Hm m Hin) as (_ & _ & T). rewrite Hname, Nat.eqb_refl in T. exact T. }
    pose proof (orphans_updm c c' ms i m F extra Hnd G Hext Hexb). rewrite orphans_bcast. lia.
Qed.

(* every member sees the coordinator go from [c] to [c'], same ids in the table, and hear [evs] *)
Lemma stage_all : forall c c' ms evs, stage c ms -> wf_cw c' -> ids (c_ents c') = ids (c_ents c) ->
  (forall m, In m ms -> m_live m = true -> keeps (absm c m) (absm c' (bcast evs m)) = true) ->
  stage c' (map (bcast evs) ms) /\ trig (mkS c' (map (bcast evs) ms)) <= trig (mkS c ms).
Proof.
  intros c c' ms evs [_ _ Hnd Hdj] Wc' Hids Hk.
  assert (Hm : forall m, In m ms -> wf_m c' (bcast evs m) = true /\ coh c' (bcast evs m) = true /\ tw c' (bcast evs m) <= tw c m).
  { intros m Hin. apply member_keeps; [apply bcast_fields | exact (Hk m Hin)]. }
  split.
  - constructor.
    + exact Wc'.
    + intros m' H'. apply in_map_iff in H'. destruct H' as [m0 [<- H0]]. destruct (Hm m0 H0) as (A & B & _). auto.
    + rewrite map_map, (map_ext (fun m0 => m_name (bcast evs m0)) m_name); [exact Hnd|]. intros m0. apply bcast_fields.
    + rewrite pairwise_bcast. exact Hdj.
  - unfold trig. cbn [s_c s_ms]. rewrite orphans_bcast, !count_orphans_ids, Hids.
    assert (sum (map (tw c') (map (bcast evs) ms)) <= sum (map (tw c) ms)); [|lia].
    rewrite map_map. apply sum_map_le. intros m Hin. apply (Hm m Hin).
Qed.

Definition mu_behaves (real : bool) (s s' : state) : Prop := if real then mu s' < mu s else mu s' <= mu s.
(* what every step case establishes of the successor (c', ms') of (c, ms) *)
Definition step_ok (real : bool) (c : coord) (ms : list member) (c' : coord) (ms' : list member) : Prop :=
  inv_facts c' ms' /\ mu_behaves real (mkS c ms) (mkS c' ms').

Lemma mu_lt : forall c c' ms ms', length ms' = length ms ->
  trig (mkS c' ms') * 4 + erank c' < trig (mkS c ms) * 4 + erank c -> mu_behaves true (mkS c ms) (mkS c' ms').
Proof.
  intros c c' ms ms' Hl H. unfold mu_behaves, mu. cbn [s_c s_ms]. rewrite Hl. apply mu_cmp; [|exact H]. rewrite <- Hl. apply sum_mp_bound.
Qed.

Lemma mu_local : forall c c' ms ms' (real : bool), length ms' = length ms -> erank c' = erank c ->
  trig (mkS c' ms') <= trig (mkS c ms) -> sum (map (mp c') ms') + (if real then 1 else 0) <= sum (map (mp c) ms) ->
  mu_behaves real (mkS c ms) (mkS c' ms').
Proof.
  intros c c' ms ms' real Hl He Ht Hs. pose proof (sum_mp_bound c' ms') as HB. rewrite Hl in HB.
  pose proof (mu_cmp_same _ _ (erank c) _ _ _ _ HB Ht Hs) as H. unfold mu_behaves, mu. cbn [s_c s_ms]. rewrite Hl, He. set (B := 1024 * S (length ms)) in *. destruct real; lia.
Qed.

Lemma keeps_refl : forall a, a_live a = true -> wf_a a = true -> coh_a a = true -> keeps a a = true.
Proof. intros a L W C. unfold keeps, good, good_at, inv_a. rewrite L, W, C, Nat.add_0_r, Nat.leb_refl. reflexivity. Qed.

(* a step of member [i] that only this member can see: the others see the coordinator as before *)
Lemma local_step : forall c c' ms i m F dk real extra,
  inv_facts c ms -> getm i ms = Some m -> m_live m = true -> (forall m0, m_name (F m0) = m_name m0) ->
  wf_c c' = true -> erank c' = erank c ->
  (forall m0, In m0 ms -> m_name m0 <> i -> m_live m0 = true -> absm c' m0 = absm c m0) ->
  good (absm c m) (absm c' (F m)) dk (Some real) = true ->
  gains_free ms i m (F m) ->
  ids (c_ents c') = ids (c_ents c) ++ extra -> (forall x, In x extra -> bound (F m) x = true) -> dkc c m (F m) <= dk ->
  step_ok real c ms c' (updm i F ms).
Proof.
  intros c c' ms i m F dk real extra Hinv G L Hn Hwc' Her Hfr Hgood Hids Hext Hexb Hdk.
  pose proof (iv_names _ _ Hinv) as Hnd. destruct (getm_In i ms m G) as [Hin Hname].
  destruct (stage_move c c' ms i m F [] dk (Some real) extra 0 Hinv G Hn (wf_cw_of_wf c' Hwc') Hgood) as [Hst Htrig]; try assumption.
  { intros m0 H0 E L0. change (bcast [] m0) with m0. rewrite (Hfr m0 H0 E L0).
    apply keeps_refl; [exact L0 | exact (iv_wfm _ _ Hinv m0 H0) | exact (iv_coh _ _ Hinv m0 H0)]. }
  { lia. }
  rewrite map_bcast_nil, Nat.add_0_r in Htrig. rewrite map_bcast_nil in Hst. split; [exact (inv_of_stage _ _ Hst Hwc')|].
  (* the potentials: the others' unchanged, [i]'s by the table row *)
  destruct (good_parts _ _ _ _ Hgood) as (_ & _ & _ & _ & Hmp). specialize (Hmp L).
  assert (Hsum : sum (map (mp c') (updm i F ms)) + (if real then 1 else 0) <= sum (map (mp c) ms)).
  { unfold updm. apply (sum_map_updm (mp c) (mp c') i _ ms m _ Hnd G).
    - intros m0 H0 E. apply Nat.eqb_neq in E. rewrite E. apply Nat.eqb_neq in E.
      destruct (member_framed c c' m0 (iv_wfm _ _ Hinv m0 H0) (iv_coh _ _ Hinv m0 H0) (Hfr m0 H0 E)) as (_ & _ & _ & M). lia.
    - rewrite Hname, Nat.eqb_refl. unfold mp. destruct real; lia. }
  apply mu_local; [apply updm_length | exact Her | exact Htrig | exact Hsum].
Qed.

(* ... and leaves the coordinator alone *)
Lemma local_same : forall c ms i m F dk real,
  inv_facts c ms -> getm i ms = Some m -> m_live m = true ->
  (forall m0, m_name (F m0) = m_name m0) ->
  good (absm c m) (absm c (F m)) dk (Some real) = true ->
  (forall x, x <> 0 -> bound (F m) x = true -> bound m x = true) ->
  dkc c m (F m) <= dk ->
  step_ok real c ms c (updm i F ms).
Proof.
  intros c ms i m F dk real Hinv G L Hn Hgood Hids Hdk.
  apply (local_step c c ms i m F dk real [] Hinv G L Hn (iv_wfc _ _ Hinv) eq_refl); try assumption.
  - intros; reflexivity.
  - intros x Hx B. left. exact (Hids x Hx B).
  - symmetry. apply app_nil_r.
  - intros x [].
Qed.

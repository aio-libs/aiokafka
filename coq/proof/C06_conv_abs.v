(* The member-level operations of model/C06_Converge.v on the finite view [av], and the proofs that [absm]
   commutes with them. *)
From Coq Require Import ZArith List Bool Arith Lia.
From Verif Require Import DispatchActs HeartbeatDispatch JoinRetryDispatch JoinDispatch SyncDispatch CommitDispatch
  C06_Converge C06_conv_lib C06_conv_refl.
Import ListNotations.
Local Open Scope nat_scope.

Definition a_core (live : bool) (ph : phase) (rejoin : bool) (ck : ckst) (hb : bool) (ib : ibk) (hbin cmin : option Z) (a : av) : av :=
  mkA live ph rejoin ck hb ib hbin cmin (a_st a) (a_G0 a) (a_idz a) (a_id_e a) (a_id_p a) (a_id_jp a) (a_id_sp a)
      (a_genz a) (a_gen_eq a) (a_gen_le a) (a_fz a) (a_f_e a) (a_f_p a) (a_f_jp a) (a_f_sp a) (a_f_id a)
      (a_gz a) (a_g_eq a) (a_g_le a).
Definition a_set_live b a := a_core b (a_ph a) (a_rejoin a) (a_ck a) (a_hb a) (a_ib a) (a_hbin a) (a_cmin a) a.
Definition a_set_rejoin b a := a_core (a_live a) (a_ph a) b (a_ck a) (a_hb a) (a_ib a) (a_hbin a) (a_cmin a) a.
Definition a_set_ck k a := a_core (a_live a) (a_ph a) (a_rejoin a) k (a_hb a) (a_ib a) (a_hbin a) (a_cmin a) a.
Definition a_set_hb b a := a_core (a_live a) (a_ph a) (a_rejoin a) (a_ck a) b (a_ib a) (a_hbin a) (a_cmin a) a.
Definition a_set_hbin o a := a_core (a_live a) (a_ph a) (a_rejoin a) (a_ck a) (a_hb a) (a_ib a) o (a_cmin a) a.
Definition a_set_cmin o a := a_core (a_live a) (a_ph a) (a_rejoin a) (a_ck a) (a_hb a) (a_ib a) (a_hbin a) o a.
(* m_id changes: its five fields (= 0, in the table, pending, the two parked flags) become [z e p jp sp],
   and "focus = m_id" becomes [fid] *)
Definition a_set_idv (z e p jp sp fid : bool) (a : av) : av :=
  mkA (a_live a) (a_ph a) (a_rejoin a) (a_ck a) (a_hb a) (a_ib a) (a_hbin a) (a_cmin a) (a_st a) (a_G0 a)
      z e p jp sp (a_genz a) (a_gen_eq a) (a_gen_le a) (a_fz a) (a_f_e a) (a_f_p a) (a_f_jp a) (a_f_sp a) fid
      (a_gz a) (a_g_eq a) (a_g_le a).
Definition a_set_genv (z eq le : bool) (a : av) : av :=
  mkA (a_live a) (a_ph a) (a_rejoin a) (a_ck a) (a_hb a) (a_ib a) (a_hbin a) (a_cmin a) (a_st a) (a_G0 a)
      (a_idz a) (a_id_e a) (a_id_p a) (a_id_jp a) (a_id_sp a) z eq le (a_fz a) (a_f_e a) (a_f_p a) (a_f_jp a) (a_f_sp a) (a_f_id a)
      (a_gz a) (a_g_eq a) (a_g_le a).
(* leaving PJoinSent with an empty inbox: the focus and the reply generation become the canonical 0 *)
Definition a_leave_join (ph : phase) (a : av) : av :=
  mkA (a_live a) ph (a_rejoin a) (a_ck a) (a_hb a) INone (a_hbin a) (a_cmin a) (a_st a) (a_G0 a)
      (a_idz a) (a_id_e a) (a_id_p a) (a_id_jp a) (a_id_sp a) (a_genz a) (a_gen_eq a) (a_gen_le a)
      true false false false false (a_idz a) true (a_G0 a) true.

(* reset_generation *)
Definition a_reset (a : av) : av :=
  a_set_rejoin true (a_set_genv true (a_G0 a) true (a_set_idv true false false false false (a_fz a) a)).
(* member_id := the id of the exchange *)
Definition a_adopt (a : av) : av := a_set_idv (a_fz a) (a_f_e a) (a_f_p a) (a_f_jp a) (a_f_sp a) true a.

(* [jr]: the chain belongs to a JoinGroup reply (the reply's member id is the focus); otherwise it is 0 *)
Definition areact1 (jr : bool) (a : av) (x : act) : av :=
  match x with
  | ACoordinatorDead => a_set_ck CkNone a
  | ARequestRejoin => a_set_rejoin true a
  | AResetGeneration => a_reset a
  | ASetMemberId => if jr then a_adopt a else a_set_idv true false false false false (a_fz a) a
  | ARaiseSame | ARaiseCode _ | ARaiseUnexpected | ARaiseOther => a_set_live false a
  | _ => a
  end.
Definition areact (jr : bool) (acts : list act) (a : av) : av := fold_left (areact1 jr) acts a.

Definition a_recv_hb (code : Z) (a : av) : av :=
  let a1 := areact false (heartbeatDispatch code) (a_set_hbin None a) in
  if a_idz a1 then a_set_hb false a1 else a1.
Definition a_recv_cm (code : Z) (a : av) : av := areact false (commitDispatch code) (a_set_cmin None a).
(* inbox := None (phase unchanged): the reply generation becomes the canonical 0 *)
Definition a_clear_ib (a : av) : av :=
  mkA (a_live a) (a_ph a) (a_rejoin a) (a_ck a) (a_hb a) INone (a_hbin a) (a_cmin a) (a_st a) (a_G0 a)
      (a_idz a) (a_id_e a) (a_id_p a) (a_id_jp a) (a_id_sp a) (a_genz a) (a_gen_eq a) (a_gen_le a)
      (a_fz a) (a_f_e a) (a_f_p a) (a_f_jp a) (a_f_sp a) (a_f_id a) true (a_G0 a) true.
Definition a_recv_join (code : Z) (a : av) : av :=
  if has ARetryJoin (joinRetryDispatch code) then
    a_leave_join PIdle (areact true (joinRetryDispatch code) (a_clear_ib a))
  else if has ASuccess (joinDispatch code) then
    a_leave_join PJoined (a_set_genv (a_gz a) (a_g_eq a) (a_g_le a) (a_adopt (a_clear_ib a)))
  else a_leave_join PIdle (areact true (joinDispatch code) (a_clear_ib a)).
Definition a_recv_sync (code : Z) (a : av) : av :=
  if has ASuccess (syncDispatch code) then a_set_hb true (a_leave_join PIdle (a_clear_ib a))
  else a_leave_join PIdle (areact false (syncDispatch code) (a_clear_ib a)).

(* the coordinator facts about the id 0 (the empty member id, and the focus outside a JoinGroup exchange) *)
Definition zfacts (c : coord) : Prop :=
  memb 0 (ids (c_ents c)) = false /\ memb 0 (c_pend c) = false /\ ent_jp c 0 = false /\ ent_sp c 0 = false.

Lemma find_ent_none : forall x es, memb x (ids es) = false -> find_ent x es = None.
Proof.
  intros x es. induction es as [|e r IH]; simpl; intros H; [reflexivity|].
  unfold memb in H. simpl in H. apply orb_false_iff in H. destruct H as [H1 H2].
  unfold find_ent. simpl. rewrite Nat.eqb_sym, H1. apply IH. exact H2.
Qed.

Record wf_c_facts (c : coord) : Prop := {
  wc_nodup : nodupb (ids (c_ents c)) = true;
  wc_0e : memb 0 (ids (c_ents c)) = false;
  wc_0p : memb 0 (c_pend c) = false;
  wc_pend : forallb (fun x => negb (memb x (ids (c_ents c)))) (c_pend c) = true;
  wc_nonempty : cstate_eqb (c_st c) CEmpty || negb (is_none (hd_error (c_ents c))) = true;
  wc_empty : negb (cstate_eqb (c_st c) CEmpty) || is_none (hd_error (c_ents c)) = true;
  wc_jp : cstate_eqb (c_st c) CPreparing || forallb (fun e => negb (e_jp e)) (c_ents c) = true;
  wc_sp : cstate_eqb (c_st c) CCompleting || forallb (fun e => negb (e_sp e)) (c_ents c) = true;
  wc_notall : negb (cstate_eqb (c_st c) CPreparing) || negb (all_joined (c_ents c)) = true;
  wc_leader : match c_st c with CCompleting | CStable => memb (c_leader c) (ids (c_ents c)) && negb (c_gen c =? 0) | _ => true end = true;
  wc_lsp : ent_sp c (c_leader c) = false }.
Lemma wf_c_parts : forall c, wf_c c = true -> wf_c_facts c.
Proof.
  intros c H. unfold wf_c in H.
  apply andb_true_iff in H; destruct H as [H A11]. apply andb_true_iff in H; destruct H as [H A10].
  apply andb_true_iff in H; destruct H as [H A9]. apply andb_true_iff in H; destruct H as [H A8].
  apply andb_true_iff in H; destruct H as [H A7]. apply andb_true_iff in H; destruct H as [H A6].
  apply andb_true_iff in H; destruct H as [H A5]. apply andb_true_iff in H; destruct H as [H A4].
  apply andb_true_iff in H; destruct H as [H A3]. apply andb_true_iff in H; destruct H as [A1 A2].
  apply negb_true_iff in A2, A3, A11. constructor; assumption.
Qed.
Lemma wf_c_of_parts : forall c, wf_c_facts c -> wf_c c = true.
Proof.
  intros c [A1 A2 A3 A4 A5 A6 A7 A8 A9 A10 A11]. unfold wf_c.
  rewrite A1, A2, A3, A4, A5, A6, A7, A8, A9, A10, A11. reflexivity.
Qed.

(* the part of the coordinator's well-formedness that the views rely on (also holds between _prepare_rebalance and
   _complete_join, where "not completely joined" may fail) *)
Record wf_cw (c : coord) : Prop := {
  ww_nodup : nodupb (ids (c_ents c)) = true;
  ww_0e : memb 0 (ids (c_ents c)) = false;
  ww_0p : memb 0 (c_pend c) = false;
  ww_pend : forallb (fun x => negb (memb x (ids (c_ents c)))) (c_pend c) = true;
  ww_empty : negb (cstate_eqb (c_st c) CEmpty) || is_none (hd_error (c_ents c)) = true;
  ww_jp : cstate_eqb (c_st c) CPreparing || forallb (fun e => negb (e_jp e)) (c_ents c) = true;
  ww_sp : cstate_eqb (c_st c) CCompleting || forallb (fun e => negb (e_sp e)) (c_ents c) = true;
  ww_gen : match c_st c with CCompleting | CStable => negb (c_gen c =? 0) | _ => true end = true }.
Lemma wf_cw_of_wf : forall c, wf_c c = true -> wf_cw c.
Proof.
  intros c H. pose proof (wf_c_parts c H) as W. constructor;
    [exact (wc_nodup c W) | exact (wc_0e c W) | exact (wc_0p c W) | exact (wc_pend c W) | exact (wc_empty c W)
    | exact (wc_jp c W) | exact (wc_sp c W)|].
  pose proof (wc_leader c W) as Hl. destruct (c_st c); try reflexivity; apply andb_true_iff in Hl; destruct Hl as [_ Hl]; exact Hl.
Qed.
Lemma wcw_zfacts : forall c, wf_cw c -> zfacts c.
Proof.
  intros c W. unfold zfacts. repeat split; [exact (ww_0e c W) | exact (ww_0p c W) | |].
  - unfold ent_jp. rewrite (find_ent_none 0 _ (ww_0e c W)). reflexivity.
  - unfold ent_sp. rewrite (find_ent_none 0 _ (ww_0e c W)). reflexivity.
Qed.

Lemma wf_c_zfacts : forall c, wf_c c = true -> zfacts c.
Proof. intros c H. apply wcw_zfacts, wf_cw_of_wf, H. Qed.

(* controlled reduction: projections of the two records, the setters and the small helper functions only *)
Ltac pcbn :=
  cbn [m_name m_live m_ph m_rejoin m_ck m_hb m_hbin m_cmin m_id m_gen m_focus m_inbox
       set_live set_id set_gen set_ph set_rejoin set_ck set_hb set_focus set_inbox set_hbin set_cmin
       focus_of rgen_of ib_of
       a_live a_ph a_rejoin a_ck a_hb a_ib a_hbin a_cmin a_st a_G0 a_idz a_id_e a_id_p a_id_jp a_id_sp a_genz a_gen_eq a_gen_le
       a_fz a_f_e a_f_p a_f_jp a_f_sp a_f_id a_gz a_g_eq a_g_le].
Ltac pcbn_in H :=
  cbn [m_name m_live m_ph m_rejoin m_ck m_hb m_hbin m_cmin m_id m_gen m_focus m_inbox
       set_live set_id set_gen set_ph set_rejoin set_ck set_hb set_focus set_inbox set_hbin set_cmin
       focus_of rgen_of ib_of
       a_live a_ph a_rejoin a_ck a_hb a_ib a_hbin a_cmin a_st a_G0 a_idz a_id_e a_id_p a_id_jp a_id_sp a_genz a_gen_eq a_gen_le
       a_fz a_f_e a_f_p a_f_jp a_f_sp a_f_id a_gz a_g_eq a_g_le] in H.

Lemma react1_keeps : forall rid m x, m_ph (react1 rid m x) = m_ph m /\ m_focus (react1 rid m x) = m_focus m
  /\ m_name (react1 rid m x) = m_name m /\ m_hb (react1 rid m x) = m_hb m /\ m_inbox (react1 rid m x) = m_inbox m
  /\ m_hbin (react1 rid m x) = m_hbin m /\ m_cmin (react1 rid m x) = m_cmin m.
Proof. intros rid m x. destruct x; repeat split; reflexivity. Qed.
Lemma react_keeps : forall rid acts m, m_ph (react rid acts m) = m_ph m /\ m_focus (react rid acts m) = m_focus m
  /\ m_name (react rid acts m) = m_name m /\ m_hb (react rid acts m) = m_hb m /\ m_inbox (react rid acts m) = m_inbox m
  /\ m_hbin (react rid acts m) = m_hbin m /\ m_cmin (react rid acts m) = m_cmin m.
Proof.
  intros rid acts. induction acts as [|x r IH]; intros m; [repeat split; reflexivity|].
  unfold react in *. cbn [fold_left]. destruct (IH (react1 rid m x)) as (A & B & C & D & E & F & G).
  destruct (react1_keeps rid m x) as (A' & B' & C' & D' & E' & F' & G').
  rewrite A, B, C, D, E, F, G. repeat split; assumption.
Qed.
Lemma react_inbox : forall rid acts m, m_inbox (react rid acts m) = m_inbox m.
Proof. intros. apply react_keeps. Qed.

Section Commute.
  Variable c : coord.
  Hypothesis Zc : zfacts c.

  Lemma absm_set_ck : forall k m, absm c (set_ck k m) = a_set_ck k (absm c m).
  Proof. reflexivity. Qed.
  Lemma absm_set_rejoin : forall b m, absm c (set_rejoin b m) = a_set_rejoin b (absm c m).
  Proof. reflexivity. Qed.
  Lemma absm_set_live : forall b m, absm c (set_live b m) = a_set_live b (absm c m).
  Proof. reflexivity. Qed.
  Lemma absm_set_hb : forall b m, absm c (set_hb b m) = a_set_hb b (absm c m).
  Proof. reflexivity. Qed.
  Lemma absm_set_hbin : forall o m, absm c (set_hbin o m) = a_set_hbin o (absm c m).
  Proof. reflexivity. Qed.
  Lemma absm_set_cmin : forall o m, absm c (set_cmin o m) = a_set_cmin o (absm c m).
  Proof. reflexivity. Qed.

  Lemma absm_set_id0 : forall m, absm c (set_id 0 m) = a_set_idv true false false false false (a_fz (absm c m)) (absm c m).
  Proof.
    intros m. destruct Zc as (Z1 & Z2 & Z3 & Z4). unfold absm, a_set_idv. pcbn. rewrite Z1, Z2, Z3, Z4. reflexivity.
  Qed.

  (* setter by setter: unfolding the three at once makes a term the kernel is slow to re-check *)
  Lemma absm_reset : forall m,
    absm c (set_rejoin true (set_gen 0 (set_id 0 m))) = a_reset (absm c m).
  Proof.
    intros m. rewrite absm_set_rejoin.
    change (absm c (set_gen 0 (set_id 0 m))) with (a_set_genv true (0 =? c_gen c) true (absm c (set_id 0 m))).
    rewrite absm_set_id0, (Nat.eqb_sym 0 (c_gen c)). reflexivity.
  Qed.

  Lemma absm_adopt : forall m, m_ph m = PJoinSent -> absm c (set_id (m_focus m) m) = a_adopt (absm c m).
  Proof.
    intros m P. unfold absm, a_adopt, a_set_idv, focus_of. pcbn. rewrite P. cbn [ph_eqb]. rewrite Nat.eqb_refl. reflexivity.
  Qed.

  Lemma absm_react1 : forall jr rid m x,
    (jr = true -> m_ph m = PJoinSent /\ rid = m_focus m) -> (jr = false -> rid = 0) ->
    absm c (react1 rid m x) = areact1 jr (absm c m) x.
  Proof.
    intros jr rid m x Hj Hn. destruct x; cbn [react1 areact1]; try reflexivity.
    - apply absm_reset.
    - destruct jr.
      + destruct (Hj eq_refl) as [P ->]. apply absm_adopt. exact P.
      + rewrite (Hn eq_refl). apply absm_set_id0.
  Qed.

  Lemma absm_react : forall jr rid acts m,
    (jr = true -> m_ph m = PJoinSent /\ rid = m_focus m) -> (jr = false -> rid = 0) ->
    absm c (react rid acts m) = areact jr acts (absm c m).
  Proof.
    intros jr rid acts. induction acts as [|x r IH]; intros m Hj Hn; [reflexivity|].
    unfold react, areact in *. cbn [fold_left]. rewrite IH.
    - rewrite (absm_react1 jr rid m x Hj Hn). reflexivity.
    - intros E. destruct (Hj E) as [P F]. destruct (react1_keeps rid m x) as (A & B & _). rewrite A, B. split; assumption.
    - exact Hn.
  Qed.

  Lemma absm_recv_hb : forall code m, absm c (recv_hb code m) = a_recv_hb code (absm c m).
  Proof.
    intros code m. unfold recv_hb, a_recv_hb.
    rewrite <- absm_set_hbin. rewrite <- (absm_react false 0); [|intros; discriminate | reflexivity].
    set (m1 := react 0 (heartbeatDispatch code) (set_hbin None m)).
    change (a_idz (absm c m1)) with (m_id m1 =? 0). destruct (m_id m1 =? 0); reflexivity.
  Qed.

  Lemma absm_recv_cm : forall code m, absm c (recv_cm code m) = a_recv_cm code (absm c m).
  Proof.
    intros code m. unfold recv_cm, a_recv_cm. rewrite <- absm_set_cmin.
    rewrite <- (absm_react false 0); [reflexivity | intros; discriminate | reflexivity].
  Qed.
  Lemma absm_clear_ib : forall m, absm c (set_inbox None m) = a_clear_ib (absm c m).
  Proof.
    intros m. unfold absm, a_clear_ib, focus_of. pcbn. rewrite (Nat.eqb_sym 0 (c_gen c)). reflexivity.
  Qed.

  (* leaving the JoinGroup / SyncGroup exchange: the phase changes, the inbox is already empty *)
  Lemma absm_leave : forall ph m, ph <> PJoinSent -> m_inbox m = None ->
    absm c (set_ph ph m) = a_leave_join ph (absm c m).
  Proof.
    intros ph m Hp Hi. destruct Zc as (Z1 & Z2 & Z3 & Z4). unfold absm, a_leave_join, focus_of, rgen_of, ib_of. pcbn. rewrite Hi.
    destruct ph; try congruence; cbn [ph_eqb]; rewrite Z1, Z2, Z3, Z4, (Nat.eqb_sym 0 (m_id m)), (Nat.eqb_sym 0 (c_gen c)); reflexivity.
  Qed.

  Lemma absm_recv_join : forall code g m, m_ph m = PJoinSent -> m_inbox m = Some (RpJoin code g) ->
    absm c (recv_join code g m) = a_recv_join code (absm c m).
  Proof.
    intros code g m P I. unfold recv_join, a_recv_join.
    destruct (has ARetryJoin (joinRetryDispatch code)).
    - rewrite absm_leave; [|discriminate | rewrite react_inbox; reflexivity].
      rewrite (absm_react true (m_focus m)); [rewrite absm_clear_ib; reflexivity | intros _; split; [exact P | reflexivity] | intros; discriminate].
    - destruct (has ASuccess (joinDispatch code)).
      + rewrite absm_leave; [|discriminate | reflexivity]. f_equal.
        rewrite <- absm_clear_ib.
        assert (E : absm c (set_id (m_focus m) (set_inbox None m)) = a_adopt (absm c (set_inbox None m))).
        { apply (absm_adopt (set_inbox None m)). exact P. }
        rewrite <- E. unfold absm, a_set_genv, focus_of, rgen_of, ib_of. pcbn. rewrite I. reflexivity.
      + rewrite absm_leave; [|discriminate | rewrite react_inbox; reflexivity].
        rewrite (absm_react true (m_focus m)); [rewrite absm_clear_ib; reflexivity | intros _; split; [exact P | reflexivity] | intros; discriminate].
  Qed.

  Lemma absm_recv_sync : forall code m, m_ph m = PSyncSent ->
    absm c (recv_sync code m) = a_recv_sync code (absm c m).
  Proof.
    intros code m P. unfold recv_sync, a_recv_sync. destruct (has ASuccess (syncDispatch code)).
    - rewrite absm_set_hb. rewrite absm_leave; [|discriminate | reflexivity]. rewrite absm_clear_ib. reflexivity.
    - rewrite absm_leave; [|discriminate | rewrite react_inbox; reflexivity].
      rewrite (absm_react false 0); [rewrite absm_clear_ib; reflexivity | intros; discriminate | reflexivity].
  Qed.
End Commute.

Lemma cons_gen_nat : forall G g, cons_gen (G =? 0) (g =? 0) (g =? G) (g <=? G) = true.
Proof.
  intros G g. unfold cons_gen.
  destruct (Nat.eqb_spec G 0), (Nat.eqb_spec g 0), (Nat.eqb_spec g G), (Nat.leb_spec g G); simpl; try reflexivity; lia.
Qed.

Lemma pend_not_ent_w : forall c x, wf_cw c -> memb x (ids (c_ents c)) = true -> memb x (c_pend c) = false.
Proof.
  intros c x W He. destruct (memb x (c_pend c)) eqn:Ep; [|reflexivity]. exfalso.
  apply memb_In in Ep. pose proof (ww_pend c W) as Hp. rewrite forallb_forall in Hp. specialize (Hp x Ep). rewrite He in Hp. discriminate.
Qed.
Lemma pend_not_ent : forall c x, wf_c c = true -> memb x (ids (c_ents c)) = true -> memb x (c_pend c) = false.
Proof. intros c x H. apply pend_not_ent_w. apply wf_cw_of_wf. exact H. Qed.

Lemma cons_id_nat : forall c x, wf_cw c ->
  cons_id (x =? 0) (memb x (ids (c_ents c))) (memb x (c_pend c)) (ent_jp c x) (ent_sp c x) = true.
Proof.
  intros c x H. destruct (wcw_zfacts c H) as (Z1 & Z2 & Z3 & Z4). unfold cons_id.
  destruct (Nat.eqb_spec x 0) as [->|Hx].
  - rewrite Z1, Z2, Z3, Z4. reflexivity.
  - destruct (memb x (ids (c_ents c))) eqn:He.
    + rewrite (pend_not_ent_w c x H He). reflexivity.
    + unfold ent_jp, ent_sp. rewrite (find_ent_none x _ He). simpl. destruct (memb x (c_pend c)); reflexivity.
Qed.

Lemma find_ent_flag : forall (fl : entry -> bool) x es, forallb (fun e => negb (fl e)) es = true ->
  match find_ent x es with Some e => fl e | None => false end = false.
Proof.
  intros fl x es H. destruct (find_ent x es) as [e|] eqn:F; [|reflexivity].
  unfold find_ent in F. apply find_some in F. destruct F as [Hin _]. rewrite forallb_forall in H.
  specialize (H e Hin). apply negb_true_iff in H. exact H.
Qed.

Lemma cons_st_nat : forall c x, wf_cw c ->
  cons_st (c_st c) (c_gen c =? 0) (memb x (ids (c_ents c))) (ent_jp c x) (ent_sp c x) = true.
Proof.
  intros c x W. pose proof (ww_empty c W) as We. pose proof (ww_jp c W) as Wj. pose proof (ww_sp c W) as Ws. pose proof (ww_gen c W) as Wg.
  unfold cons_st, ent_jp, ent_sp.
  apply andb_true_iff; split; [apply andb_true_iff; split; [apply andb_true_iff; split|]|].
  - destruct (cstate_eqb (c_st c) CEmpty); [|reflexivity]. cbn [negb orb] in *.
    destruct (c_ents c); [reflexivity | discriminate].
  - apply orb_true_iff in Wj. destruct Wj as [E|E]; [rewrite E; reflexivity|].
    rewrite (find_ent_flag e_jp x _ E). apply orb_true_r.
  - apply orb_true_iff in Ws. destruct Ws as [E|E]; [rewrite E; reflexivity|].
    rewrite (find_ent_flag e_sp x _ E). apply orb_true_r.
  - destruct (c_st c); try reflexivity; exact Wg.
Qed.

(* every view of a live, well-formed member against a well-formed coordinator is consistent *)
Lemma cons_absm_w : forall c m, wf_cw c -> m_live m = true -> wf_m c m = true -> cons_a (absm c m) = true.
Proof.
  intros c m Hc L W. destruct (wcw_zfacts c Hc) as (Z1 & Z2 & Z3 & Z4).
  (* [wf_a] of a live member ends with "the heartbeat / commit reply on the wire is a known code" ([Wh], [Wc]) and
     starts with the clause on the phase and the inbox (what is left of [W]) *)
  unfold wf_m, wf_a in W. change (a_live (absm c m)) with (m_live m) in W. rewrite L in W. cbn [negb orb] in W.
  apply andb_true_iff in W; destruct W as [W Wc]. apply andb_true_iff in W; destruct W as [W Wh].
  repeat (apply andb_true_iff in W; destruct W as [W _]).
  unfold cons_a.
  apply andb_true_iff; split; [apply andb_true_iff; split; [apply andb_true_iff; split; [apply andb_true_iff; split;
    [apply andb_true_iff; split; [apply andb_true_iff; split; [apply andb_true_iff; split; [apply andb_true_iff; split|]|]|]|]|]|]|].
  - unfold absm. pcbn. apply cons_id_nat. exact Hc.
  - unfold absm. pcbn. apply cons_st_nat. exact Hc.
  - unfold absm. pcbn. apply cons_st_nat. exact Hc.
  - unfold absm. pcbn. apply cons_gen_nat.
  - unfold absm, cons_focus, focus_of. pcbn. destruct (m_ph m); cbn [ph_eqb];
      try (rewrite Z1, Z2, Z3, Z4, (Nat.eqb_sym 0 (m_id m)); simpl; apply eqb_reflx).
    apply andb_true_iff; split; [apply andb_true_iff; split|].
    + apply cons_id_nat. exact Hc.
    + destruct (Nat.eqb_spec (m_focus m) (m_id m)) as [->|]; [|reflexivity]. simpl. rewrite !eqb_reflx. reflexivity.
    + destruct (Nat.eqb_spec (m_focus m) 0) as [->|]; [|reflexivity]. destruct (Nat.eqb_spec (m_id m) 0) as [->|]; reflexivity.
  - unfold absm, cons_g, rgen_of, ib_of. pcbn. destruct (m_inbox m) as [[code g|code]|]; cbn.
    + apply cons_gen_nat.
    + destruct (c_gen c); reflexivity.
    + destruct (c_gen c); reflexivity.
  - change (a_ib (absm c m)) with (ib_of m) in *. change (a_ph (absm c m)) with (m_ph m) in W.
    destruct (ib_of m) as [|code|code]; [reflexivity | |]; destruct (m_ph m); try discriminate W; cbn [ib_ok];
      repeat (apply andb_true_iff in W; destruct W as [W ?]); exact W.
  - exact Wh.
  - exact Wc.
Qed.

Lemma cons_absm : forall c m, wf_c c = true -> m_live m = true -> wf_m c m = true -> cons_a (absm c m) = true.
Proof. intros c m H. apply cons_absm_w. apply wf_cw_of_wf. exact H. Qed.

(* where the member id comes from after a chain: unchanged, 0, or the id of the JoinGroup exchange *)
Inductive idsrc := SSame | SZero | SFocus.
Definition src1 (jr : bool) (s : idsrc) (x : act) : idsrc :=
  match x with AResetGeneration => SZero | ASetMemberId => if jr then SFocus else SZero | _ => s end.
Definition src_of (jr : bool) (acts : list act) : idsrc := fold_left (src1 jr) acts SSame.
Definition idval (m : member) (rid : nat) (s : idsrc) : nat :=
  match s with SSame => m_id m | SZero => 0 | SFocus => rid end.

Lemma react_id_gen : forall jr rid acts m0 m s0, (jr = false -> rid = 0) ->
  m_id m0 = idval m rid s0 -> m_id (fold_left (react1 rid) acts m0) = idval m rid (fold_left (src1 jr) acts s0).
Proof.
  intros jr rid acts. induction acts as [|x r IH]; intros m0 m s0 Hj H; [exact H|].
  cbn [fold_left]. apply IH; [exact Hj|].
  destruct x; cbn [react1 src1]; try exact H; try reflexivity.
  destruct jr; [reflexivity | rewrite (Hj eq_refl); reflexivity].
Qed.
Lemma react_id : forall jr rid acts m, (jr = false -> rid = 0) ->
  m_id (react rid acts m) = idval m rid (src_of jr acts).
Proof. intros. unfold react, src_of. apply react_id_gen; [assumption | reflexivity]. Qed.

(* C14 — range assignor: validity and per-topic balance of [range_assign]. *)
From Coq Require Import Arith List Bool Lia PeanoNat.
From Verif Require Import C14_Assignors C14_lists.
Import ListNotations.

Lemma range_start_succ : forall n k i,
  range_start n k (S i) = range_start n k i + range_len n k i.
Proof.
  intros. unfold range_start, range_len. rewrite Nat.mul_succ_r.
  destruct (Nat.leb_spec (i + 1) (n mod k)); lia.
Qed.

Lemma range_start_k : forall n k, k > 0 -> range_start n k k = n.
Proof.
  intros. unfold range_start.
  pose proof (Nat.div_mod n k ltac:(lia)). pose proof (Nat.mod_upper_bound n k ltac:(lia)).
  rewrite Nat.min_r by lia. rewrite (Nat.mul_comm (n / k) k). lia.
Qed.

Lemma range_start_mono : forall n k i j, i <= j -> range_start n k i <= range_start n k j.
Proof.
  intros n k i j H. induction H; auto. rewrite range_start_succ. lia.
Qed.

Lemma range_len_bounds : forall n k i, n / k <= range_len n k i <= n / k + 1.
Proof. intros. unfold range_len. destruct (i + 1 <=? n mod k); lia. Qed.

Lemma range_slice_seq : forall n k i, i < k ->
  range_slice n k i = seq (range_start n k i) (range_len n k i).
Proof.
  intros. unfold range_slice. apply firstn_skipn_seq.
  rewrite <- range_start_succ. rewrite <- (range_start_k n k) at 2 by lia.
  apply range_start_mono. lia.
Qed.

Lemma range_slice_In : forall n k i p, i < k ->
  (In p (range_slice n k i) <-> range_start n k i <= p < range_start n k (S i)).
Proof.
  intros. rewrite range_slice_seq, in_seq, range_start_succ by auto. reflexivity.
Qed.

Lemma range_cover : forall n k p, k > 0 -> p < n ->
  exists i, i < k /\ range_start n k i <= p < range_start n k (S i).
Proof.
  intros n k p Hk Hp.
  assert (G : forall j, p < range_start n k j ->
                        exists i, i < j /\ range_start n k i <= p < range_start n k (S i)).
  { induction j; intros Hj.
    - unfold range_start in Hj. lia.
    - destruct (Nat.lt_ge_cases p (range_start n k j)) as [Hlt|Hge].
      + destruct (IHj Hlt) as [i [Hi Hr]]. exists i. split; auto.
      + exists j. split; auto. }
  apply G. rewrite range_start_k; auto.
Qed.

Lemma range_slices_disjoint : forall n k i j p, i < k -> j < k -> i <> j ->
  In p (range_slice n k i) -> In p (range_slice n k j) -> False.
Proof.
  intros n k i j p Hi Hj Hne H1 H2.
  apply range_slice_In in H1, H2; auto.
  destruct (Nat.lt_ge_cases i j).
  - pose proof (range_start_mono n k (S i) j ltac:(lia)). lia.
  - pose proof (range_start_mono n k (S j) i ltac:(lia)). lia.
Qed.

Lemma last_index_from_notin : forall m l i acc, ~ In m l -> last_index_from m l i acc = acc.
Proof.
  induction l as [|x r IH]; simpl; intros i acc H; auto.
  rewrite IH by tauto. destruct (Nat.eqb_spec x m); auto. subst. tauto.
Qed.

Lemma last_index_from_some : forall m l i acc j,
  last_index_from m l i acc = Some j ->
  acc = Some j \/ (i <= j /\ j < i + length l /\ nth (j - i) l 0 = m).
Proof.
  induction l as [|x r IH]; simpl; intros i acc j H; auto.
  apply IH in H. destruct H as [H|[H1 [H2 H3]]].
  - destruct (Nat.eqb_spec x m).
    + inversion H; subst. right. rewrite Nat.sub_diag. split; [lia|split; [lia|reflexivity]].
    + auto.
  - right. split; [lia|split; [lia|]].
    replace (j - i) with (S (j - S i)) by lia. exact H3.
Qed.

Lemma last_index_from_nth : forall l k i acc, NoDup l -> k < length l ->
  last_index_from (nth k l 0) l i acc = Some (i + k).
Proof.
  induction l as [|x r IH]; simpl; intros k i acc Hn Hk; [lia|].
  inversion Hn; subst. destruct k.
  - rewrite Nat.eqb_refl. rewrite last_index_from_notin by auto. f_equal; lia.
  - rewrite IH by (auto; lia). f_equal; lia.
Qed.

Lemma last_index_some : forall m l i, last_index m l = Some i -> i < length l /\ nth i l 0 = m.
Proof.
  unfold last_index. intros m l i H. apply last_index_from_some in H.
  destruct H as [H|[_ [H1 H2]]]; [discriminate|]. rewrite Nat.sub_0_r in H2. split; [lia|auto].
Qed.

Lemma last_index_nth : forall l k, NoDup l -> k < length l -> last_index (nth k l 0) l = Some k.
Proof. intros. unfold last_index. rewrite last_index_from_nth; auto. Qed.

Lemma filter_eqb_nodup : forall t s, NoDup s -> length (filter (Nat.eqb t) s) <= 1.
Proof.
  intros t s Hn. apply (NoDup_incl_length (l' := [t])); [apply NoDup_filter, Hn|].
  intros x Hx. apply filter_In in Hx. destruct Hx as [_ E]. apply Nat.eqb_eq in E. left; auto.
Qed.

Lemma cft_In : forall ms t m, In m (consumers_for_topic ms t) <-> subscribed ms m t.
Proof.
  intros. unfold consumers_for_topic, subscribed. rewrite sort_In, in_flat_map. split.
  - intros [[m' s] [Hin H]]. apply in_map_iff in H. destruct H as [t' [E Ht]]. subst.
    apply filter_In in Ht. destruct Ht as [Ht E]. apply Nat.eqb_eq in E. subst. eauto.
  - intros [s [Hin Ht]]. exists (m, s). split; auto. apply in_map_iff. exists t. split; auto.
    apply filter_In. split; auto. apply Nat.eqb_refl.
Qed.

Lemma cft_NoDup : forall ms t, ids_nodup ms -> subs_nodup ms -> NoDup (consumers_for_topic ms t).
Proof.
  intros ms t Hi Hs. unfold consumers_for_topic. apply sort_NoDup. apply NoDup_flat_map.
  - eapply NoDup_map_inv; eauto.
  - intros [m s] Hin. pose proof (filter_eqb_nodup t s (Hs _ _ Hin)) as L.
    destruct (filter (Nat.eqb t) s) as [|a [|b l]]; simpl in *; [| |lia]; repeat constructor. tauto.
  - intros [m s] [m' s'] x Ha Hb Hne H1 H2.
    apply in_map_iff in H1, H2. destruct H1 as [? [<- _]], H2 as [? [E _]]. subst.
    apply Hne. eapply (NoDup_map_eq _ _ fst); eauto.
Qed.

Definition range_P (ppt : layout) (ms : members_t) (m : member) (t : topic) : option (list nat) :=
  match lookup_parts ppt t with
  | None => None
  | Some n =>
    let cs := consumers_for_topic ms t in
    match last_index m cs with
    | None => None
    | Some i => Some (range_slice n (length cs) i)
    end
  end.

Lemma range_assign_grid : forall ppt ms,
  range_assign ppt ms = grid_assign (range_P ppt ms) (all_topics ms) ms.
Proof.
  intros. unfold range_assign, grid_assign. apply map_ext. intros e. f_equal.
  unfold range_member, grid_member. apply flat_map_ext. intros t. unfold range_P.
  destruct (lookup_parts ppt t); auto.
  destruct (last_index (fst e) (consumers_for_topic ms t)); auto.
Qed.

Lemma range_P_some : forall ppt ms m t ps, range_P ppt ms m t = Some ps ->
  exists n i, lookup_parts ppt t = Some n /\
              let cs := consumers_for_topic ms t in
              i < length cs /\ nth i cs 0 = m /\ ps = range_slice n (length cs) i.
Proof.
  unfold range_P. intros ppt ms m t ps H.
  destruct (lookup_parts ppt t) as [n|]; [|discriminate].
  destruct (last_index m (consumers_for_topic ms t)) as [i|] eqn:E; [|discriminate].
  inversion H; subst. apply last_index_some in E. destruct E. exists n, i. auto.
Qed.

Lemma range_P_nth : forall ppt ms t n i, ids_nodup ms -> subs_nodup ms ->
  lookup_parts ppt t = Some n ->
  let cs := consumers_for_topic ms t in
  i < length cs -> range_P ppt ms (nth i cs 0) t = Some (range_slice n (length cs) i).
Proof.
  intros ppt ms t n i Hi Hs L cs Hlt. unfold range_P. rewrite L. fold cs.
  rewrite last_index_nth; auto. apply cft_NoDup; auto.
Qed.

Theorem range_valid : forall ppt ms, ids_nodup ms -> subs_nodup ms ->
  valid ppt ms (triples_of (range_assign ppt ms)).
Proof.
  intros ppt ms Hi Hs. rewrite range_assign_grid. split; [|split].
  - apply grid_NoDup; auto using all_topics_NoDup.
    + intros m t ps H. apply range_P_some in H. destruct H as [n [i [_ [Hlt [_ ->]]]]].
      rewrite range_slice_seq by auto. apply seq_NoDup.
    + intros m m' t ps ps' p Hne H H'.
      apply range_P_some in H, H'.
      destruct H as [n [i [L [Hlt [Hn ->]]]]], H' as [n' [i' [L' [Hlt' [Hn' ->]]]]].
      rewrite L in L'. inversion L'; subst n'.
      apply range_slices_disjoint; auto. intros ->. congruence.
  - intros m [t p] H. apply grid_In in H. simpl in *.
    destruct H as [Hm [Ht [ps [HP Hp]]]]. apply range_P_some in HP.
    destruct HP as [n [i [L [Hlt [Hn ->]]]]]. split.
    + apply cft_In. rewrite <- Hn. apply nth_In; auto.
    + exists n. split; auto. simpl. apply range_slice_In in Hp; auto.
      pose proof (range_start_mono n (length (consumers_for_topic ms t)) (S i) _ Hlt) as Hmn.
      rewrite range_start_k in Hmn by lia. lia.
  - intros [t p] [[n [L Hp]] [m0 Hsub]]. simpl in *.
    pose proof (proj2 (cft_In ms t m0) Hsub) as Hin0.
    set (cs := consumers_for_topic ms t) in *.
    assert (Hk : length cs > 0) by (destruct cs; simpl in *; [tauto|lia]).
    destruct (range_cover n (length cs) p Hk Hp) as [i [Hi' Hr]].
    exists (nth i cs 0). apply grid_In. simpl.
    assert (Hsub' : subscribed ms (nth i cs 0) t) by (apply cft_In; apply nth_In; auto).
    split; [|split].
    + eapply subscribed_member; eauto.
    + apply all_topics_In. eauto.
    + exists (range_slice n (length cs) i). split.
      * apply range_P_nth; auto.
      * apply range_slice_In; auto.
Qed.

Lemma load_topic_app : forall tr1 tr2 m t,
  load_topic (tr1 ++ tr2) m t = load_topic tr1 m t ++ load_topic tr2 m t.
Proof. intros. unfold load_topic. rewrite filter_app, map_app. reflexivity. Qed.

Lemma load_topic_flat_map : forall (A : Type) (f : A -> list (nat * (nat * nat))) l m t,
  load_topic (flat_map f l) m t = flat_map (fun a => load_topic (f a) m t) l.
Proof.
  induction l as [|a l IH]; simpl; intros; auto. rewrite load_topic_app, IH. reflexivity.
Qed.

Lemma load_topic_cell : forall P m' t' m t,
  load_topic (cell P m' t') m t =
  if Nat.eqb m' m && Nat.eqb t' t then match P m' t' with Some ps => ps | None => [] end else [].
Proof.
  intros. unfold cell. destruct (P m' t') as [ps|]; [|destruct (_ && _); reflexivity].
  unfold load_topic. induction ps as [|p ps IH]; simpl.
  - destruct (_ && _); reflexivity.
  - destruct (Nat.eqb m' m && Nat.eqb t' t); simpl in *; rewrite IH; reflexivity.
Qed.

(* of all the cells of the grid only that of m and t contributes *)
Lemma grid_load_topic : forall P topics ms m t,
  NoDup (map fst ms) -> NoDup topics -> In m (map fst ms) -> In t topics ->
  load_topic (triples_of (grid_assign P topics ms)) m t =
  match P m t with Some ps => ps | None => [] end.
Proof.
  intros P topics ms m t Hm Ht Hin Hint.
  apply in_map_iff in Hin. destruct Hin as [e [<- He]].
  rewrite triples_of_grid, load_topic_flat_map, (flat_map_single _ _ _ ms e); auto.
  - rewrite load_topic_flat_map, (flat_map_single _ _ _ topics t); auto.
    + rewrite load_topic_cell, !Nat.eqb_refl. reflexivity.
    + intros t' _ Hne. rewrite load_topic_cell.
      apply Nat.eqb_neq in Hne. rewrite Hne, andb_false_r. reflexivity.
  - eapply NoDup_map_inv; eauto.
  - intros b Hb Hne. rewrite load_topic_flat_map. apply flat_map_nil. intros t' _.
    rewrite load_topic_cell. replace (fst b =? fst e) with false; auto.
    symmetry. apply Nat.eqb_neq. intros E. apply Hne. eapply NoDup_map_eq; eauto.
Qed.

Theorem range_balanced : forall ppt ms t n, ids_nodup ms -> subs_nodup ms ->
  lookup_parts ppt t = Some n ->
  let tr := triples_of (range_assign ppt ms) in
  let k := length (consumers_for_topic ms t) in
  forall m, subscribed ms m t ->
    exists i, i < k /\ nth i (consumers_for_topic ms t) 0 = m /\
              load_topic tr m t = seq (range_start n k i) (range_len n k i) /\
              n / k <= range_len n k i <= n / k + 1.
Proof.
  intros ppt ms t n Hi Hs L tr k m Hsub. subst tr.
  rewrite range_assign_grid.
  assert (Hin : In m (consumers_for_topic ms t)) by (apply cft_In; auto).
  destruct (In_nth _ _ 0 Hin) as [i [Hlt Hnth]].
  exists i. split; auto. split; auto. split; [|apply range_len_bounds].
  rewrite grid_load_topic; auto using all_topics_NoDup.
  - rewrite <- Hnth, (range_P_nth ppt ms t n i) by auto.
    subst k. apply range_slice_seq; lia.
  - eapply subscribed_member; eauto.
  - apply all_topics_In. eauto.
Qed.

(* Step cases: the steps that change the coordinator - a JoinGroup or SyncGroup it accepts, the expiry of an orphan id. *)
From Coq Require Import ZArith List Bool Arith Lia.
From Verif Require Import DispatchActs HeartbeatDispatch JoinRetryDispatch JoinDispatch SyncDispatch CommitDispatch
  C06_Converge C06_conv_lib C06_conv_refl C06_conv_abs C06_conv_checks C06_conv_step C06_conv_cases C06_conv_coord.
Import ListNotations.
Local Open Scope nat_scope.

Definition join_out (o : outcome) (m : member) : member := apply_outcome o (sent_join m).

Lemma fresh_facts : forall c ms y, fresh (mkS c ms) y = true ->
  y <> 0 /\ memb y (ids (c_ents c)) = false /\ memb y (c_pend c) = false /\ forall m0, In m0 ms -> bound m0 y = false.
Proof.
  intros c ms y H. unfold fresh in H. cbn [s_c s_ms] in H.
  apply andb_true_iff in H; destruct H as [H H4]. apply andb_true_iff in H; destruct H as [H H3].
  apply andb_true_iff in H; destruct H as [H1 H2]. apply negb_true_iff in H1, H2, H3. apply Nat.eqb_neq in H1.
  repeat split; try assumption. intros m0 H0. rewrite forallb_forall in H4. specialize (H4 m0 H0).
  apply andb_true_iff in H4. destruct H4 as [A B]. apply negb_true_iff in A, B.
  unfold bound. rewrite A, B, andb_false_r. cbn [orb]. apply andb_false_r.
Qed.

(* the member after its JoinGroup is bound to the id of the exchange as well *)
Lemma bound_join_out : forall o m x z, m_ph m = PIdle -> m_focus (join_out o m) = x ->
  bound (join_out o m) z = bound m z || (m_live m && (x =? z)).
Proof.
  intros o m x z P <-. unfold bound. rewrite P.
  destruct o; unfold join_out, apply_outcome, sent_join; pcbn; cbn [ph_eqb andb]; destruct (m_live m), (m_id m =? z); reflexivity.
Qed.

Lemma gain_id : forall c ms i m m' x, (forall z, bound m' z = bound m z || (x =? z)) ->
  (forall m0, In m0 ms -> m_name m0 <> i -> bound m0 x = false) ->
  gains_free ms i m m' /\ bound m' x = true /\ dkc c m m' = 0.
Proof.
  intros c ms i m m' x Hb Hoth. split; [|split].
  - intros z _ B. rewrite Hb in B. apply orb_true_iff in B. destruct B as [B|B]; [left; exact B | right].
    apply Nat.eqb_eq in B. subst z. exact Hoth.
  - rewrite Hb, Nat.eqb_refl. apply orb_true_r.
  - apply dkc_zero. intros z B. rewrite Hb, B. reflexivity.
Qed.

Lemma agree_pend_cons : forall c y, agree_off y c (mkC (c_gen c) (c_st c) (c_ents c) (y :: c_pend c) (c_leader c)).
Proof.
  intros c y. split; [reflexivity|]. split; [reflexivity|]. intros z Hz. repeat split. cbn [c_pend]. unfold memb. cbn [existsb].
  destruct (Nat.eqb_spec z y); [contradiction | reflexivity].
Qed.

Lemma set_jp_roundtrip : forall x es, forallb (fun e => negb (e_jp e)) es = true -> set_jp x false (set_jp x true es) = es.
Proof.
  intros x es H. unfold set_jp. rewrite map_map. rewrite <- (map_id es) at 2. apply map_ext_in. intros e He.
  rewrite forallb_forall in H. specialize (H e He). apply negb_true_iff in H.
  destruct (e_id e =? x) eqn:E; cbn [e_id]; rewrite E; [|reflexivity]. destruct e as [a b d]. cbn in *. subst b. reflexivity.
Qed.
Lemma remove_absent : forall x l, memb x l = false -> remove_id x l = l.
Proof.
  intros x l H. unfold remove_id. induction l as [|a r IH]; [reflexivity|]. unfold memb in H. cbn [existsb] in H.
  apply orb_false_iff in H. destruct H as [H1 H2]. cbn [filter]. rewrite (Nat.eqb_sym a x), H1. cbn [negb]. rewrite (IH H2). reflexivity.
Qed.
Lemma coord_eta : forall c, mkC (c_gen c) (c_st c) (c_ents c) (c_pend c) (c_leader c) = c.
Proof. destruct c; reflexivity. Qed.

Lemma join_known_immediate : forall c x, wf_c c = true -> memb x (ids (c_ents c)) = true ->
  (c_st c = CCompleting \/ (c_st c = CStable /\ (x =? c_leader c) = false)) ->
  join_known c x = (c, Immediate x (RpJoin 0 (c_gen c)), []).
Proof.
  intros c x Hc Hx Hst. pose proof (wf_c_parts c Hc) as W. unfold join_known. rewrite Hx. cbn [negb].
  assert (Hjp : forallb (fun e => negb (e_jp e)) (c_ents c) = true).
  { pose proof (wc_jp c W) as H. destruct Hst as [E|[E _]]; rewrite E in H; exact H. }
  assert (Hp : remove_id x (c_pend c) = c_pend c) by (apply remove_absent; apply (pend_not_ent c x Hc Hx)).
  cbn [c_pend]. rewrite (set_jp_roundtrip x _ Hjp), Hp, coord_eta.
  destruct Hst as [E|[E El]]; rewrite E; [reflexivity|]. cbn [orb]. rewrite El. reflexivity.
Qed.

Lemma agree_set_sp : forall c x, agree_off x c (mkC (c_gen c) (c_st c) (set_sp x true (c_ents c)) (c_pend c) (c_leader c)).
Proof.
  intros c x. split; [reflexivity|]. split; [reflexivity|]. intros z Hz. unfold ent_jp, ent_sp. cbn [c_ents c_pend]. rewrite ids_set_sp.
  fold (flag_of e_jp z (set_sp x true (c_ents c))) (flag_of e_sp z (set_sp x true (c_ents c))).
  destruct (flag_set_sp x true z (c_ents c)) as [A B]. rewrite A, B. destruct (Nat.eqb_spec z x); [contradiction|]. repeat split; reflexivity.
Qed.
Definition sync_park (m : member) : member := set_inbox None (set_ph PSyncSent (set_rejoin false m)).
Lemma bound_sync_park : forall m z, m_ph m = PJoined -> bound (sync_park m) z = bound m z.
Proof. intros m z Hp. apply bound_keep; [reflexivity | reflexivity | rewrite Hp; discriminate | left; discriminate]. Qed.

Lemma gen_le_of : forall c m, m_live m = true -> coh c m = true -> m_gen m <= c_gen c.
Proof.
  intros c m L C. unfold coh, coh_a, absm in C. pcbn_in C. rewrite L in C. cbn [negb orb] in C.
  apply andb_true_iff in C. destruct C as [_ C]. apply Nat.leb_le. exact C.
Qed.
Lemma rgen_le_of : forall c m, m_live m = true -> wf_m c m = true -> coh c m = true -> rgen_of m <= c_gen c.
Proof.
  intros c m L W C. unfold rgen_of. destruct (m_inbox m) as [[code g|code]|] eqn:I; try lia.
  unfold coh, coh_a, wf_m, wf_a, absm in *. pcbn_in C. pcbn_in W. rewrite L in C, W. cbn [negb orb] in C, W.
  unfold ib_of, rgen_of in *. rewrite I in C, W.
  destruct (Z.eqb_spec code 0) as [->|Hn].
  - apply andb_true_iff in C. destruct C as [C _]. apply andb_true_iff in C. destruct C as [C _].
    apply andb_true_iff in C. destruct C as [_ C]. apply andb_true_iff in C. destruct C as [C _]. apply Nat.leb_le. exact C.
  - repeat (apply andb_true_iff in W; destruct W as [W ?]).
    destruct (m_ph m); try discriminate.
    repeat (apply andb_true_iff in W; destruct W as [W ?]).
    destruct (code =? 0)%Z eqn:E; [apply Z.eqb_eq in E; contradiction|]. cbn [orb] in *.
    match goal with H : (g =? 0) = true |- _ => apply Nat.eqb_eq in H; lia end.
Qed.

Lemma all_joined_flag : forall es x, all_joined es = true -> memb x (ids es) = true -> flag_of e_jp x es = true.
Proof.
  intros es x Ha Hm. unfold flag_of. rewrite find_ent_memb in Hm. destruct (find_ent x es) as [e|] eqn:F; [|discriminate].
  unfold find_ent in F. apply find_some in F. destruct F as [Hin _]. unfold all_joined in Ha. rewrite forallb_forall in Ha. apply Ha. exact Hin.
Qed.

(* _complete_join for every member: from a stage in PreparingRebalance with every entry joined to the invariant *)
Lemma barrier_close : forall cP msP, stage cP msP -> c_st cP = CPreparing -> all_joined (c_ents cP) = true -> c_ents cP <> [] ->
  let ms3 := map (bcast [EvJoinDone (S (c_gen cP))]) msP in
  inv_facts (c3_of cP) ms3 /\ trig (mkS (c3_of cP) ms3) <= trig (mkS cP msP).
Proof.
  intros cP msP Hs Hst Haj Hne ms3. pose proof (sg_c _ _ Hs) as W. pose proof (wfc_complete cP W Hst Hne) as Hwc3.
  destruct (stage_all cP (c3_of cP) msP [EvJoinDone (S (c_gen cP))] Hs (wf_cw_of_wf _ Hwc3)) as [S3 T3].
  - unfold c3_of. cbn [c_ents]. apply ids_clear_jp.
  - intros mP Hin L. destruct (sg_m _ _ Hs mP Hin) as [Wm Cm].
    rewrite (absm_T_barrier cP (c3_of cP) mP eq_refl eq_refl eq_refl eq_refl (gen_le_of cP mP L Cm) (rgen_le_of cP mP L Wm Cm)).
    apply (member_move cP mP W L Wm Cm VBarrier). cbn [apost]. change (a_st (absm cP mP)) with (c_st cP). rewrite Hst.
    (* every entry has joined: so has the member's, if it has one *)
    assert (E3 : negb (a_id_e (absm cP mP)) || a_id_jp (absm cP mP) = true).
    { unfold absm. pcbn. destruct (memb (m_id mP) (ids (c_ents cP))) eqn:E; [|reflexivity]. exact (all_joined_flag _ _ Haj E). }
    assert (E4 : negb (a_f_e (absm cP mP)) || a_f_jp (absm cP mP) = true).
    { unfold absm. pcbn. destruct (memb (focus_of mP) (ids (c_ents cP))) eqn:E; [|reflexivity]. exact (all_joined_flag _ _ Haj E). }
    rewrite E3, E4. reflexivity.
  - split; [exact (inv_of_stage _ _ S3 Hwc3) | exact T3].
Qed.

(* any member across _prepare_rebalance *)
Lemma keeps_prepare : forall c m0, wf_cw c -> c_st c <> CPreparing -> m_live m0 = true -> wf_m c m0 = true -> coh c m0 = true ->
  keeps (absm c m0) (T_sync CPreparing 27 (absm c m0)) = true.
Proof.
  intros c m0 W Hst L Wm Cm. apply (member_move c m0 W L Wm Cm VPrepare). cbn [apost]. change (a_st (absm c m0)) with (c_st c).
  destruct (c_st c); try reflexivity. congruence.
Qed.

Lemma erank_le2 : forall c, erank c <= 2.
Proof. intros c. unfold erank. destruct (c_st c); lia. Qed.

(* the coordinator once the table is edited for a JoinGroup about x, and then after _prepare_rebalance *)
Definition c1_of (c : coord) (x : nat) : coord :=
  mkC (c_gen c) (c_st c) (ents1 (c_ents c) x) (remove_id x (c_pend c)) (c_leader c).
Definition c2_of (c : coord) (x : nat) : coord :=
  mkC (c_gen c) CPreparing (clear_sp (ents1 (c_ents c) x)) (remove_id x (c_pend c)) (c_leader c).
(* the id the request is about ([y]: the one generated for an empty member id), and when the id checks of [cjoin] pass *)
Definition join_target (m : member) (y : nat) : nat := if m_id m =? 0 then y else m_id m.
Definition join_accepts (c : coord) (ms : list member) (m : member) (y : nat) : Prop :=
  (m_id m = 0 /\ fresh (mkS c ms) y = true)
  \/ (m_id m <> 0 /\ (memb (m_id m) (ids (c_ents c)) = true \/ memb (m_id m) (c_pend c) = true)).

Lemma agree_c1 : forall c x, agree_off x c (c1_of c x).
Proof.
  intros c x. split; [reflexivity|]. split; [reflexivity|]. intros z Hz. unfold c1_of, ent_jp, ent_sp. cbn [c_ents c_pend].
  destruct (flags_ents1 (c_ents c) x z) as [A B].
  fold (flag_of e_jp z (ents1 (c_ents c) x)) (flag_of e_sp z (ents1 (c_ents c) x)). rewrite A, B, memb_ents1.
  destruct (Nat.eqb_spec z x); [contradiction|]. rewrite orb_false_r, (memb_remove_other z x) by assumption. repeat split; reflexivity.
Qed.

Section Mover.
  Variables (c : coord) (ms : list member) (i : nat) (m : member) (y : nat).
  Hypotheses (Hinv : inv_facts c ms) (G : getm i ms = Some m).
  Let Hin : In m ms := proj1 (getm_In i ms m G).
  Let Hwc : wf_c c = true := iv_wfc _ _ Hinv.
  Let W : wf_c_facts c := wf_c_parts c Hwc.

  Section SendJoin.
    Hypotheses (R : join_ready m) (Hns : ck_stale (m_ck m) = false).

    (* JoinGroup with an empty member id, v4+: MEMBER_ID_REQUIRED and a new pending id *)
    Lemma case_join_79 : m_id m = 0 -> fresh (mkS c ms) y = true ->
      let c' := mkC (c_gen c) (c_st c) (c_ents c) (y :: c_pend c) (c_leader c) in
      let F := join_out (Immediate y (RpJoin 79 0)) in
      step_ok true c ms c' (updm i F ms).
    Proof.
      intros Hid Hfr c' F. pose proof (jr_live m R) as L. destruct (fresh_facts c ms y Hfr) as (Hy0 & Hye & Hyp & Hyo).
      assert (Hwc' : wf_c c' = true).
      { apply wf_c_of_parts. constructor; unfold c'; cbn [c_gen c_st c_ents c_pend c_leader];
          try (first [exact (wc_nodup c W) | exact (wc_0e c W) | exact (wc_nonempty c W) | exact (wc_empty c W) | exact (wc_jp c W)
                     | exact (wc_sp c W) | exact (wc_notall c W) | exact (wc_leader c W) | exact (wc_lsp c W)]).
        - unfold memb. cbn [existsb]. destruct (Nat.eqb_spec 0 y); [congruence|]. exact (wc_0p c W).
        - cbn [forallb]. rewrite Hye. exact (wc_pend c W). }
      assert (EA : absm c' (F m) = a_join_79 (absm c m)).
      { unfold F, join_out, apply_outcome, sent_join, a_join_79, a_enter_join, absm, focus_of, rgen_of, ib_of. pcbn. cbn [ph_eqb].
        rewrite Hid. unfold c'. cbn [c_gen c_st c_ents c_pend]. rewrite Hye.
        assert (X1 : memb y (y :: c_pend c) = true) by (unfold memb; cbn [existsb]; rewrite Nat.eqb_refl; reflexivity).
        assert (X2 : memb 0 (y :: c_pend c) = memb 0 (c_pend c)) by (unfold memb; cbn [existsb]; destruct (Nat.eqb_spec 0 y); [congruence | reflexivity]).
        rewrite X1, X2. unfold ent_jp, ent_sp. cbn [c_ents]. rewrite (find_ent_none y _ Hye).
        destruct (Nat.eqb_spec y 0); [congruence|]. rewrite (Nat.eqb_sym 0 (c_gen c)). reflexivity. }
      destruct (gain_id c ms i m (F m) y) as (Hids & _ & Hdk).
      { intros z. unfold F. rewrite (bound_join_out (Immediate y (RpJoin 79 0)) m y z (jr_ph m R) eq_refl), L. reflexivity. }
      { intros m0 H0 _. exact (Hyo m0 H0). }
      apply (local_step c c' ms i m F 0 true [] Hinv G L (fun _ => eq_refl) Hwc' eq_refl); try assumption.
      - intros m0 H0 Hn0 L0. apply (absm_frame y); [apply agree_pend_cons | exact Hy0 | exact L0 | exact (Hyo m0 H0)].
      - apply (inv_move c ms m AJoin79 _ _ _ Hinv Hin L). cbn [apost]. rewrite (join_ready_abs c m R), EA.
        change (a_ck (absm c m)) with (m_ck m). change (a_idz (absm c m)) with (m_id m =? 0). rewrite Hns, Hid. reflexivity.
      - symmetry. apply app_nil_r.
      - intros z [].
      - rewrite Hdk. lia.
    Qed.

    (* a known member joining while nothing is being prepared: answered at once, the coordinator is unchanged *)
    Lemma case_join_immediate : m_id m <> 0 -> memb (m_id m) (ids (c_ents c)) = true -> (c_st c = CCompleting \/ c_st c = CStable) ->
      step_ok true c ms c (updm i (join_imm 0 (c_gen c)) ms).
    Proof.
      intros Hid He Hst.
      assert (Hg0 : (c_gen c =? 0) = false).
      { pose proof (wc_leader c W) as Hl. destruct Hst as [E|E]; rewrite E in Hl; apply andb_true_iff in Hl; destruct Hl as [_ Hl]; apply negb_true_iff in Hl; exact Hl. }
      assert (Hjp : ent_jp c (m_id m) = false).
      { pose proof (wc_jp c W) as Hj. unfold ent_jp. apply (find_ent_flag e_jp). destruct Hst as [E|E]; rewrite E in Hj; exact Hj. }
      assert (Hz : (m_id m =? 0) = false) by (apply Nat.eqb_neq; exact Hid).
      apply (case_join_imm c ms i m Hinv G AJoinImmediate 0 (c_gen c) R).
      cbn [apost]. unfold join_ok_a. rewrite (join_ready_abs c m R), (absm_join_imm c m 0 (c_gen c) (jr_ph m R) (jr_inbox m R)).
      change (a_ck (absm c m)) with (m_ck m). change (a_idz (absm c m)) with (m_id m =? 0). change (a_G0 (absm c m)) with (c_gen c =? 0).
      change (a_id_e (absm c m)) with (memb (m_id m) (ids (c_ents c))). change (a_id_jp (absm c m)) with (ent_jp c (m_id m)).
      change (a_id_p (absm c m)) with (memb (m_id m) (c_pend c)). change (a_st (absm c m)) with (c_st c).
      rewrite Hns, Hz, He, Hg0, Hjp, (pend_not_ent c _ Hwc He), Nat.eqb_refl, Nat.leb_refl.
      destruct Hst as [E|E]; rewrite E; reflexivity.
    Qed.

    (* a JoinGroup accepted for the id x (the member's id, or a new one for an empty id) *)
    Section Join.
      Hypothesis Ha : join_accepts c ms m y.
      Let x := join_target m y.
      Let F := join_out (Parked x).
      Let extra := if memb x (ids (c_ents c)) then [] else [x].

      Lemma target_nz : x <> 0.
      Proof.
        unfold x, join_target. destruct Ha as [[E Hf]|[E _]].
        - rewrite E. cbn [Nat.eqb]. destruct (fresh_facts c ms y Hf) as (H & _). exact H.
        - destruct (Nat.eqb_spec (m_id m) 0); [contradiction | assumption].
      Qed.

      Lemma known_target : memb x (ids (c_ents c)) = true -> m_id m <> 0 /\ x = m_id m.
      Proof.
        unfold x, join_target. intros He. destruct Ha as [[E Hf]|[E _]].
        - rewrite E in He. cbn [Nat.eqb] in He. destruct (fresh_facts c ms y Hf) as (_ & Hye & _). congruence.
        - destruct (Nat.eqb_spec (m_id m) 0); [contradiction | auto].
      Qed.

      Lemma target_unbound : forall m0, In m0 ms -> m_name m0 <> i -> bound m0 x = false.
      Proof.
        unfold x, join_target. destruct Ha as [[E Hf]|[E _]].
        - rewrite E. cbn [Nat.eqb]. destruct (fresh_facts c ms y Hf) as (_ & _ & _ & H). intros m0 H0 _. exact (H m0 H0).
        - destruct (Nat.eqb_spec (m_id m) 0) as [|N]; [contradiction|]. apply (others_unbound c ms i m (m_id m) Hinv G N).
          unfold bound. rewrite (jr_live m R), Nat.eqb_refl. reflexivity.
      Qed.

      Lemma target_ids : gains_free ms i m (F m) /\ bound (F m) x = true /\ dkc c m (F m) = 0.
      Proof.
        apply (gain_id c ms i m (F m) x); [|exact target_unbound].
        intros z. unfold F. rewrite (bound_join_out (Parked x) m x z (jr_ph m R) eq_refl), (jr_live m R). reflexivity.
      Qed.

      Lemma target_extra : forall z, In z extra -> bound (F m) z = true.
      Proof. intros z Hz. unfold extra in Hz. destruct (memb x (ids (c_ents c))); [destruct Hz|]. destruct Hz as [<-|[]]. apply target_ids. Qed.

      Lemma join_frame : forall m0, In m0 ms -> m_name m0 <> i -> m_live m0 = true -> absm (c1_of c x) m0 = absm c m0.
      Proof. intros m0 H0 Hn0 L0. apply (absm_frame x); [apply agree_c1 | exact target_nz | exact L0 | exact (target_unbound m0 H0 Hn0)]. Qed.

      Lemma join_ok_abs : join_ok_a (absm c m) = true.
      Proof.
        unfold join_ok_a. rewrite (join_ready_abs c m R). change (a_ck (absm c m)) with (m_ck m). rewrite Hns.
        unfold absm. pcbn. destruct Ha as [[E _]|[_ [E|E]]]; rewrite E; [reflexivity | apply orb_true_iff; left; apply orb_true_r | apply orb_true_r].
      Qed.

      Lemma absm_join_parked : absm (c1_of c x) (F m) = a_join_parked (absm c m).
      Proof.
        pose proof (wf_c_zfacts c Hwc) as (Z1 & Z2 & Z3 & Z4). pose proof target_nz as Hx.
        unfold F, absm, a_join_parked, join_out, apply_outcome, sent_join, focus_of, rgen_of, ib_of. pcbn. cbn [ph_eqb].
        unfold c1_of, ent_jp, ent_sp. cbn [c_gen c_st c_ents c_pend].
        fold (flag_of e_jp (m_id m) (ents1 (c_ents c) x)) (flag_of e_sp (m_id m) (ents1 (c_ents c) x))
             (flag_of e_jp x (ents1 (c_ents c) x)) (flag_of e_sp x (ents1 (c_ents c) x)).
        destruct (flags_ents1 (c_ents c) x (m_id m)) as [A1 B1]. destruct (flags_ents1 (c_ents c) x x) as [A2 B2].
        rewrite A1, B1, A2, B2, !memb_ents1, Nat.eqb_refl, orb_true_r, memb_remove_same.
        fold (flag_of e_sp (m_id m) (c_ents c)) (flag_of e_sp x (c_ents c)).
        assert (Hx0 : (x =? 0) = false) by (apply Nat.eqb_neq; exact Hx). rewrite Hx0, (Nat.eqb_sym 0 (c_gen c)).
        destruct Ha as [[E Hf]|[E Hm]].
        - assert (Ex : x = y) by (unfold x, join_target; rewrite E; reflexivity).
          destruct (fresh_facts c ms y Hf) as (_ & Hye & _).
          assert (S0 : flag_of e_sp 0 (c_ents c) = false) by exact Z4.
          assert (S3 : flag_of e_jp 0 (c_ents c) = false) by exact Z3.
          assert (Sx : flag_of e_sp x (c_ents c) = false) by (rewrite Ex; unfold flag_of; rewrite (find_ent_none y _ Hye); reflexivity).
          assert (P0 : memb 0 (remove_id x (c_pend c)) = false) by (rewrite (memb_remove_other 0 x) by congruence; exact Z2).
          rewrite E, Z1, S0, S3, Sx, P0, (Nat.eqb_sym 0 x), Hx0. reflexivity.
        - assert (Ex : x = m_id m) by (unfold x, join_target; destruct (Nat.eqb_spec (m_id m) 0); [contradiction | reflexivity]).
          rewrite Ex. rewrite Nat.eqb_refl. destruct (Nat.eqb_spec (m_id m) 0); [contradiction|]. cbn [negb].
          rewrite orb_true_r, memb_remove_same. reflexivity.
      Qed.

      Lemma target_tbl : tbl_ok (ents1 (c_ents c) x) (remove_id x (c_pend c)).
      Proof. apply tbl_ents1; [apply tbl_of_wcw, wf_cw_of_wf; exact Hwc | exact target_nz]. Qed.

      (* in PreparingRebalance: the request is parked *)
      Section Preparing.
        Hypothesis Hst : c_st c = CPreparing.

        Lemma join_park_row : good (absm c m) (absm (c1_of c x) (F m)) 0 (Some true) = true.
        Proof.
          apply (inv_move c ms m AJoinParked _ _ _ Hinv Hin (jr_live m R)). cbn [apost].
          rewrite join_ok_abs. change (a_st (absm c m)) with (c_st c). rewrite Hst, absm_join_parked. reflexivity.
        Qed.

        Lemma wcw_c1 : wf_cw (c1_of c x).
        Proof.
          unfold c1_of. rewrite Hst. apply wcw_preparing; [exact target_tbl|]. apply sp_ents1.
          pose proof (ww_sp c (wf_cw_of_wf c Hwc)) as H. rewrite Hst in H. exact H.
        Qed.

        (* ... not the last one to join *)
        Lemma case_join_parked : all_joined (ents1 (c_ents c) x) = false ->
          step_ok true c ms (c1_of c x) (updm i F ms).
        Proof.
          intros Hnj. destruct target_ids as (Hids & _ & Hdk).
          apply (local_step c (c1_of c x) ms i m F 0 true extra Hinv G (jr_live m R) (fun _ => eq_refl)); try assumption.
          - apply wfc_preparing; [exact wcw_c1 | exact Hst | apply ents1_nonempty | exact Hnj].
          - reflexivity.
          - exact join_frame.
          - exact join_park_row.
          - apply ids_ents1.
          - exact target_extra.
          - rewrite Hdk. lia.
        Qed.

        (* ... the last one: _complete_join *)
        Lemma case_join_complete : all_joined (ents1 (c_ents c) x) = true ->
          let ms3 := map (bcast [EvJoinDone (S (c_gen c))]) (updm i F ms) in
          step_ok true c ms (c3_of (c1_of c x)) ms3.
        Proof.
          intros Haj ms3. destruct target_ids as (Hids & _ & Hdk).
          destruct (stage_move c (c1_of c x) ms i m F [] 0 (Some true) extra 0 Hinv G (fun _ => eq_refl) wcw_c1 join_park_row) as [S1 T1];
            try assumption.
          { intros m0 H0 Hn0 L0. change (bcast [] m0) with m0. rewrite (join_frame m0 H0 Hn0 L0).
            apply keeps_refl; [exact L0 | exact (iv_wfm _ _ Hinv m0 H0) | exact (iv_coh _ _ Hinv m0 H0)]. }
          { apply ids_ents1. } { exact target_extra. } { rewrite Hdk. lia. }
          rewrite map_bcast_nil in S1, T1.
          destruct (barrier_close (c1_of c x) (updm i F ms) S1 Hst Haj (ents1_nonempty _ _)) as [I3 T3]. split; [exact I3|].
          apply mu_lt; [unfold ms3; rewrite map_length; apply updm_length|].
          assert (E1 : erank (c3_of (c1_of c x)) = 1) by reflexivity. assert (E2 : erank c = 2) by (unfold erank; rewrite Hst; reflexivity).
          change (c_gen (c1_of c x)) with (c_gen c) in T3. fold ms3 in T3. lia.
        Qed.
      End Preparing.

      (* otherwise (new id; the leader in Stable; first member): _prepare_rebalance *)
      Section Trigger.
        Hypotheses (Hst : c_st c <> CPreparing) (Htr : memb x (ids (c_ents c)) = false \/ c_st c = CStable).
        Let ms2 := map (bcast [EvPrepare]) (updm i F ms).

        Lemma join_trigger : stage (c2_of c x) ms2 /\ trig (mkS (c2_of c x) ms2) + 1 <= trig (mkS c ms).
        Proof.
          destruct target_ids as (Hids & _ & Hdk).
          assert (Hc12 : forall m1, absm (c2_of c x) (bcast [EvPrepare] m1) = T_sync CPreparing 27 (absm (c1_of c x) m1)).
          { intros m1. apply (absm_T_sync EvPrepare); reflexivity. }
          apply (stage_move c (c2_of c x) ms i m F [EvPrepare] 1 None extra 1 Hinv G (fun _ => eq_refl)); try assumption.
          - unfold c2_of. apply wcw_prepare. exact target_tbl.
          - rewrite Hc12, absm_join_parked. apply (inv_move c ms m AJoinTrigger _ _ _ Hinv Hin (jr_live m R)). cbn [apost]. rewrite join_ok_abs.
            change (a_st (absm c m)) with (c_st c). change (a_id_e (absm c m)) with (memb (m_id m) (ids (c_ents c))).
            assert (E2 : cstate_eqb (c_st c) CPreparing = false) by (destruct (c_st c); try reflexivity; congruence).
            assert (E3 : negb (memb (m_id m) (ids (c_ents c))) || cstate_eqb (c_st c) CStable = true).
            { destruct Htr as [E|E]; [|rewrite E; apply orb_true_r].
              unfold x, join_target in E. destruct (Nat.eqb_spec (m_id m) 0) as [Ez|Ez]; [rewrite Ez, (wc_0e c W) | rewrite E]; reflexivity. }
            rewrite E2, E3. reflexivity.
          - intros m0 H0 Hn0 L0. rewrite Hc12, (join_frame m0 H0 Hn0 L0).
            exact (keeps_prepare c m0 (wf_cw_of_wf c Hwc) Hst L0 (iv_wfm _ _ Hinv m0 H0) (iv_coh _ _ Hinv m0 H0)).
          - unfold c2_of. cbn [c_ents]. rewrite ids_clear_sp. apply ids_ents1.
          - exact target_extra.
          - rewrite Hdk. lia.
        Qed.

        (* ... not completed at once *)
        Lemma case_join_prepare : all_joined (ents1 (c_ents c) x) = false ->
          step_ok true c ms (c2_of c x) ms2.
        Proof.
          intros Hnj. destruct join_trigger as [S2 T2]. split.
          - apply (inv_of_stage _ _ S2). unfold c2_of. apply wfc_prepare; [exact target_tbl | apply ents1_nonempty | exact Hnj].
          - apply mu_lt; [unfold ms2; rewrite map_length; apply updm_length|].
            pose proof (erank_le2 c). assert (erank (c2_of c x) = 2) by reflexivity. lia.
        Qed.

        (* ... completed at once (the requester is the only member) *)
        Lemma case_join_prepare_complete : all_joined (ents1 (c_ents c) x) = true ->
          let ms3 := map (bcast [EvJoinDone (S (c_gen c))]) ms2 in
          step_ok true c ms (c3_of (c2_of c x)) ms3.
        Proof.
          intros Haj ms3. destruct join_trigger as [S2 T2].
          destruct (barrier_close (c2_of c x) ms2 S2 eq_refl) as [I3 T3].
          { unfold c2_of. cbn [c_ents]. rewrite all_joined_clear_sp. exact Haj. }
          { unfold c2_of. cbn [c_ents]. pose proof (ents1_nonempty (c_ents c) x). destruct (ents1 (c_ents c) x); [congruence | discriminate]. }
          split; [exact I3|]. apply mu_lt; [unfold ms3, ms2; rewrite !map_length; apply updm_length|].
          assert (E1 : erank (c3_of (c2_of c x)) = 1) by reflexivity. change (c_gen (c2_of c x)) with (c_gen c) in T3. fold ms3 in T3. lia.
        Qed.
      End Trigger.
    End Join.

  End SendJoin.

  Section SendSync.
    Hypotheses (L : m_live m = true) (Hp : m_ph m = PJoined) (Hib : m_inbox m = None) (Hk : ck_known (m_ck m) = true)
               (Hns : ck_stale (m_ck m) = false) (Hst : c_st c = CCompleting) (Hv : validate c (m_id m) (m_gen m) = 0%Z).

    (* a follower's SyncGroup in CompletingRebalance: parked *)
    Lemma case_sync_park : (m_id m =? c_leader c) = false ->
      let c' := mkC (c_gen c) (c_st c) (set_sp (m_id m) true (c_ents c)) (c_pend c) (c_leader c) in
      step_ok true c ms c' (updm i sync_park ms).
    Proof.
      intros Hnl c'.
      assert (Hval : memb (m_id m) (ids (c_ents c)) = true /\ (m_id m =? 0) = false /\ (m_gen m =? c_gen c) = true).
      { unfold validate in Hv. destruct (memb (m_id m) (ids (c_ents c))); [|discriminate]. destruct (m_id m =? 0); [discriminate|].
        cbn [negb orb] in Hv. destruct (m_gen m =? c_gen c); [auto | discriminate]. }
      destruct Hval as (He & Hz & Hg). assert (Hz' : m_id m <> 0) by (apply Nat.eqb_neq; exact Hz).
      assert (Hwc' : wf_c c' = true).
      { pose proof (wc_nonempty c W) as N1. pose proof (wc_jp c W) as N2. pose proof (wc_leader c W) as N3. rewrite Hst in N1, N2, N3.
        cbn [cstate_eqb orb] in N1, N2.
        apply wf_c_of_parts. constructor; unfold c'; cbn [c_gen c_st c_ents c_pend c_leader]; rewrite ?ids_set_sp, ?Hst; cbn [cstate_eqb negb orb];
          try (first [exact (wc_nodup c W) | exact (wc_0e c W) | exact (wc_0p c W) | exact (wc_pend c W) | exact N3 | reflexivity]).
        - destruct (c_ents c); [exact N1 | reflexivity].
        - rewrite forallb_forall in N2 |- *.
          intros e Hin'. unfold set_sp in Hin'. apply in_map_iff in Hin'. destruct Hin' as [e0 [<- H0]]. destruct (e_id e0 =? m_id m); [cbn [e_jp]|]; apply N2; exact H0.
        - unfold ent_sp. cbn [c_ents]. fold (flag_of e_sp (c_leader c) (set_sp (m_id m) true (c_ents c))).
          destruct (flag_set_sp (m_id m) true (c_leader c) (c_ents c)) as [A _]. rewrite A.
          rewrite (Nat.eqb_sym (c_leader c) (m_id m)), Hnl. cbn [andb]. exact (wc_lsp c W). }
      assert (Hrep : sync_reply (absm c m) = None).
      { unfold sync_reply, validate_a, absm. pcbn. rewrite Hns, He, Hz, Hg, Hst. reflexivity. }
      assert (EA : absm c' (sync_park m) = a_send_sync INone true (absm c m)).
      { unfold absm, a_send_sync, sync_park, focus_of, rgen_of, ib_of, c', ent_jp, ent_sp. pcbn. rewrite Hp, Hib. cbn [ph_eqb c_gen c_st c_ents c_pend].
        rewrite ids_set_sp.
        fold (flag_of e_jp (m_id m) (set_sp (m_id m) true (c_ents c))) (flag_of e_sp (m_id m) (set_sp (m_id m) true (c_ents c)))
             (flag_of e_jp 0 (set_sp (m_id m) true (c_ents c))) (flag_of e_sp 0 (set_sp (m_id m) true (c_ents c))).
        destruct (flag_set_sp (m_id m) true (m_id m) (c_ents c)) as [A1 B1]. destruct (flag_set_sp (m_id m) true 0 (c_ents c)) as [A2 B2].
        rewrite A1, B1, A2, B2, Nat.eqb_refl, He. rewrite (Nat.eqb_sym 0 (m_id m)), Hz. cbn [andb]. reflexivity. }
      assert (Hb : bound m (m_id m) = true) by (unfold bound; rewrite L, Nat.eqb_refl; reflexivity).
      apply (local_step c c' ms i m sync_park 0 true [] Hinv G L (fun _ => eq_refl) Hwc' eq_refl).
      - intros m0 H0 Hn0 L0. apply (absm_frame (m_id m)); [apply agree_set_sp | exact Hz' | exact L0|].
        exact (others_unbound c ms i m (m_id m) Hinv G Hz' Hb m0 H0 Hn0).
      - apply (inv_move c ms m ASendSync _ _ _ Hinv Hin L). cbn [apost]. rewrite (sync_ready_abs c m Hp Hib Hk), Hrep, EA. reflexivity.
      - intros z _ B. left. rewrite <- (bound_sync_park m z Hp). exact B.
      - unfold c'. cbn [c_ents]. rewrite app_nil_r. apply ids_set_sp.
      - intros z [].
      - rewrite dkc_zero; [lia|]. intros z B. rewrite (bound_sync_park m z Hp). exact B.
    Qed.

    (* the leader's SyncGroup in CompletingRebalance *)
    Lemma case_sync_leader :
      let c' := mkC (c_gen c) CStable (clear_sp (c_ents c)) (c_pend c) (c_leader c) in
      let ms' := map (bcast [EvSyncDone]) (updm i sync_park ms) in
      step_ok true c ms c' ms'.
    Proof.
      intros c' ms'.
      assert (Hwc' : wf_c c' = true) by (apply wfc_syncdone; [apply wf_c_parts; exact Hwc | exact Hst]).
      assert (HT : forall m1, absm c' (bcast [EvSyncDone] m1) = T_sync CStable 0 (absm c m1)) by (intros m1; apply (absm_T_sync EvSyncDone); reflexivity).
      destruct (stage_move c c' ms i m sync_park [EvSyncDone] 0 None [] 0 Hinv G (fun _ => eq_refl) (wf_cw_of_wf c' Hwc')) as [S' T'].
      - rewrite HT. apply (inv_move c ms m ASyncLeader _ _ _ Hinv Hin L). cbn [apost]. rewrite (sync_ready_abs c m Hp Hib Hk).
        change (a_st (absm c m)) with (c_st c). change (a_ck (absm c m)) with (m_ck m). rewrite Hst, Hns, <- (validate_abs c m), Hv.
        unfold absm, a_send_sync, sync_park, focus_of, rgen_of, ib_of. pcbn. rewrite Hp, Hib. reflexivity.
      - intros m0 H0 _ L0. rewrite HT. apply (inv_move c ms m0 VSyncDone _ _ _ Hinv H0 L0). cbn [apost].
        change (a_st (absm c m0)) with (c_st c). rewrite Hst. reflexivity.
      - intros z _ B. left. rewrite <- (bound_sync_park m z Hp). exact B.
      - unfold c'. cbn [c_ents]. rewrite ids_clear_sp, app_nil_r. reflexivity.
      - intros z [].
      - rewrite dkc_zero; [lia|]. intros z B. rewrite (bound_sync_park m z Hp). exact B.
      - split; [exact (inv_of_stage _ _ S' Hwc')|]. apply mu_lt; [unfold ms'; rewrite map_length; apply updm_length|].
        assert (E1 : erank c' = 0) by reflexivity. assert (E2 : erank c = 1) by (unfold erank; rewrite Hst; reflexivity). fold ms' in T'. lia.
    Qed.

  End SendSync.
End Mover.

(* an orphan id leaves the table *)
Definition drop (x : nat) (es : list entry) : list entry := filter (fun e => negb (e_id e =? x)) es.
Lemma memb_drop : forall x z es, memb z (ids (drop x es)) = memb z (ids es) && negb (z =? x).
Proof.
  intros x z es. induction es as [|e r IH]; [reflexivity|]. unfold drop, memb, ids in *. cbn [filter map existsb].
  destruct (Nat.eqb_spec (e_id e) x) as [E|E]; cbn [negb].
  - rewrite IH. destruct (Nat.eqb_spec z (e_id e)) as [E2|E2]; [|reflexivity]. rewrite E2, E, Nat.eqb_refl. cbn. rewrite andb_false_r. reflexivity.
  - cbn [map existsb]. rewrite IH. destruct (Nat.eqb_spec z (e_id e)) as [E2|E2]; [|reflexivity]. subst z.
    destruct (Nat.eqb_spec (e_id e) x); [contradiction|]. reflexivity.
Qed.
Lemma flag_drop : forall (fl : entry -> bool) x z es, z <> x -> flag_of fl z (drop x es) = flag_of fl z es.
Proof.
  intros fl x z es Hz. unfold flag_of, find_ent, drop. induction es as [|e r IH]; [reflexivity|]. cbn [filter find].
  destruct (Nat.eqb_spec (e_id e) x) as [E|E]; cbn [negb].
  - destruct (Nat.eqb_spec (e_id e) z); [congruence | exact IH].
  - cbn [find]. destruct (e_id e =? z); [reflexivity | exact IH].
Qed.
Lemma ids_drop : forall x es, ids (drop x es) = filter (fun y => negb (y =? x)) (ids es).
Proof. intros x es. unfold drop, ids. induction es as [|e r IH]; [reflexivity|]. cbn [filter map]. destruct (negb (e_id e =? x)); cbn [map]; rewrite IH; reflexivity. Qed.
Lemma tbl_drop : forall es pend x, tbl_ok es pend -> tbl_ok (drop x es) pend.
Proof.
  intros es pend x (T1 & T2 & T3 & T4). unfold tbl_ok. repeat split.
  - rewrite ids_drop. apply nodupb_NoDup. apply NoDup_filter. apply nodupb_NoDup. exact T1.
  - rewrite memb_drop, T2. reflexivity.
  - exact T3.
  - rewrite forallb_forall in T4 |- *. intros p Hp. specialize (T4 p Hp). apply negb_true_iff in T4. rewrite memb_drop, T4. reflexivity.
Qed.
Lemma forallb_drop : forall (p : entry -> bool) x es, forallb p es = true -> forallb p (drop x es) = true.
Proof. intros p x es H. rewrite forallb_forall in H |- *. intros e He. unfold drop in He. apply filter_In in He. apply H. apply He. Qed.

Lemma count_drop : forall (P : nat -> bool) x l, In x l -> P x = true ->
  length (filter P (filter (fun y => negb (y =? x)) l)) + 1 <= length (filter P l).
Proof.
  intros P x l. induction l as [|a r IH]; intros Hin Hp; [inversion Hin|]. cbn [filter].
  destruct (Nat.eqb_spec a x) as [E|E]; cbn [negb].
  - subst a. rewrite Hp. cbn [length].
    assert (length (filter P (filter (fun y => negb (y =? x)) r)) <= length (filter P r)); [|lia].
    clear. induction r as [|b r IH]; [reflexivity|]. cbn [filter]. destruct (negb (b =? x)); cbn [filter]; destruct (P b); cbn [length]; lia.
  - cbn [filter]. destruct Hin as [Hin|Hin]; [congruence|]. specialize (IH Hin Hp). destruct (P a); cbn [length]; lia.
Qed.

(* the coordinator of [cexpire] once x is out of the table, before the state is looked at *)
Definition c1x (c : coord) (x : nat) : coord :=
  mkC (c_gen c) (c_st c) (drop x (c_ents c)) (c_pend c) (if c_leader c =? x then 0 else c_leader c).

Lemma agree_c1x : forall c x, agree_off x c (c1x c x).
Proof.
  intros c x. split; [reflexivity|]. split; [reflexivity|]. intros z Hz. unfold c1x, ent_jp, ent_sp. cbn [c_ents c_pend].
  fold (flag_of e_jp z (drop x (c_ents c))) (flag_of e_sp z (drop x (c_ents c))).
  rewrite memb_drop, !flag_drop by assumption. destruct (Nat.eqb_spec z x); [contradiction|]. rewrite andb_true_r. repeat split; reflexivity.
Qed.

Lemma wcw_drop : forall c x, wf_cw c -> wf_cw (c1x c x).
Proof.
  intros c x W. destruct (tbl_drop _ _ x (tbl_of_wcw c W)) as (T1 & T2 & T3 & T4).
  pose proof (ww_empty c W) as He. pose proof (ww_jp c W) as Hj. pose proof (ww_sp c W) as Hs.
  constructor; unfold c1x; cbn [c_gen c_st c_ents c_pend]; try assumption.
  - destruct (cstate_eqb (c_st c) CEmpty); [|reflexivity]. destruct (c_ents c); [reflexivity | discriminate].
  - destruct (cstate_eqb (c_st c) CPreparing); [reflexivity|]. apply forallb_drop. exact Hj.
  - destruct (cstate_eqb (c_st c) CCompleting); [reflexivity|]. apply forallb_drop. exact Hs.
  - exact (ww_gen c W).
Qed.

Lemma absm_T_empty : forall c c' m0 (bump : bool), zfacts c ->
  c_st c' = CEmpty -> c_ents c' = [] -> c_pend c' = c_pend c -> c_gen c' = (if bump then S (c_gen c) else c_gen c) ->
  memb (m_id m0) (ids (c_ents c)) = false -> memb (focus_of m0) (ids (c_ents c)) = false ->
  m_gen m0 <= c_gen c -> rgen_of m0 <= c_gen c ->
  absm c' m0 = T_empty bump (absm c m0).
Proof.
  intros c c' m0 bump (Z1 & Z2 & Z3 & Z4) Hst He Hp Hg Hi Hf Hgen Hrg.
  unfold absm, T_empty, ent_jp, ent_sp. pcbn. rewrite Hst, He, Hp, Hg, Hi, Hf. cbn [ids map memb existsb find_ent find].
  rewrite (find_ent_none _ _ Hi), (find_ent_none _ _ Hf).
  destruct bump.
  - assert (G1 : (m_gen m0 =? S (c_gen c)) = false) by (apply Nat.eqb_neq; lia).
    assert (G2 : (m_gen m0 <=? S (c_gen c)) = true) by (apply Nat.leb_le; lia).
    assert (R1 : (rgen_of m0 =? S (c_gen c)) = false) by (apply Nat.eqb_neq; lia).
    assert (R2 : (rgen_of m0 <=? S (c_gen c)) = true) by (apply Nat.leb_le; lia).
    rewrite G1, G2, R1, R2. reflexivity.
  - reflexivity.
Qed.

Lemma nonempty_notjoined : forall es, forallb (fun e => negb (e_jp e)) es = true -> es <> [] -> all_joined es = false.
Proof.
  intros [|e r] H Hne; [congruence|]. cbn [forallb] in H. apply andb_true_iff in H. destruct H as [H _]. apply negb_true_iff in H.
  unfold all_joined. cbn [forallb]. rewrite H. reflexivity.
Qed.

Section Expire.
  Variables (c : coord) (ms : list member) (x : nat) (e : entry).
  Hypotheses (Hinv : inv_facts c ms) (Hfind : find_ent x (c_ents c) = Some e) (Horph : orphan ms e = true).

  Lemma exp_x : x <> 0 /\ In x (ids (c_ents c)) /\ orph ms x = true /\ forall m0, In m0 ms -> bound m0 x = false.
  Proof.
    assert (Hin : In x (ids (c_ents c))) by (apply memb_In; rewrite find_ent_memb, Hfind; reflexivity).
    assert (Ho : orph ms x = true) by (unfold orphan in Horph; rewrite (find_ent_id _ _ _ Hfind) in Horph; exact Horph).
    repeat split; try assumption.
    - intros E. rewrite E in Hin. apply memb_In in Hin. rewrite (wc_0e c (wf_c_parts c (iv_wfc _ _ Hinv))) in Hin. discriminate.
    - intros m0 H0. destruct (bound m0 x) eqn:B; [exfalso | reflexivity]. unfold orph in Ho. apply negb_true_iff in Ho.
      assert (existsb (fun m1 => bound m1 x) ms = true) by (apply existsb_exists; exists m0; split; assumption). congruence.
  Qed.

  (* the table without x: no member sees a difference, and there is one orphan fewer *)
  Lemma expire_drop : stage (c1x c x) ms /\ trig (mkS (c1x c x) ms) + 1 <= trig (mkS c ms).
  Proof.
    destruct exp_x as (Hx & Hin & Ho & Hnb). pose proof (stage_of_inv c ms Hinv) as [W Hm Hnd Hdj].
    assert (Hf : forall m0, In m0 ms -> wf_m (c1x c x) m0 = true /\ coh (c1x c x) m0 = true /\ tw (c1x c x) m0 = tw c m0 /\ mp (c1x c x) m0 = mp c m0).
    { intros m0 H0. destruct (Hm m0 H0) as [A B]. apply (member_framed c (c1x c x) m0 A B). intros L0.
      apply (absm_frame x); [apply agree_c1x | exact Hx | exact L0 | exact (Hnb m0 H0)]. }
    split.
    - constructor; [apply wcw_drop; exact W | | exact Hnd | exact Hdj]. intros m0 H0. destruct (Hf m0 H0) as (A & B & _). auto.
    - unfold trig. cbn [s_c s_ms].
      assert (sum (map (tw (c1x c x)) ms) <= sum (map (tw c) ms)) by (apply sum_map_le; intros m0 H0; destruct (Hf m0 H0) as (_ & _ & T & _); lia).
      assert (count_orphans (mkS (c1x c x) ms) + 1 <= count_orphans (mkS c ms)); [|lia].
      rewrite !count_orphans_ids. unfold c1x. cbn [s_c s_ms c_ents]. rewrite ids_drop. apply count_drop; assumption.
  Qed.

  (* ... in PreparingRebalance, others still missing *)
  Lemma case_expire_waiting : c_st c = CPreparing -> drop x (c_ents c) <> [] -> all_joined (drop x (c_ents c)) = false ->
    step_ok true c ms (c1x c x) ms.
  Proof.
    intros Hst Hne Hnj. destruct expire_drop as [S1 T1]. split.
    - apply (inv_of_stage _ _ S1). apply wfc_preparing; [exact (sg_c _ _ S1) | exact Hst | exact Hne | exact Hnj].
    - apply mu_lt; [reflexivity|]. assert (E1 : erank (c1x c x) = erank c) by reflexivity. lia.
  Qed.

  (* ... in PreparingRebalance, it was the last one missing: _complete_join *)
  Lemma case_expire_complete : c_st c = CPreparing -> drop x (c_ents c) <> [] -> all_joined (drop x (c_ents c)) = true ->
    let ms3 := map (bcast [EvJoinDone (S (c_gen c))]) ms in
    step_ok true c ms (c3_of (c1x c x)) ms3.
  Proof.
    intros Hst Hne Haj ms3. destruct expire_drop as [S1 T1]. destruct (barrier_close (c1x c x) ms S1 Hst Haj Hne) as [I3 T3].
    split; [exact I3|]. apply mu_lt; [apply map_length|].
    assert (E1 : erank (c3_of (c1x c x)) = 1) by reflexivity. assert (E2 : erank c = 2) by (unfold erank; rewrite Hst; reflexivity).
    change (c_gen (c1x c x)) with (c_gen c) in T3. fold ms3 in T3. lia.
  Qed.

  (* ... from Stable / CompletingRebalance: a rebalance starts *)
  Lemma case_expire_prepare : (c_st c = CStable \/ c_st c = CCompleting) -> drop x (c_ents c) <> [] ->
    let c' := mkC (c_gen c) CPreparing (clear_sp (drop x (c_ents c))) (c_pend c) (if c_leader c =? x then 0 else c_leader c) in
    let ms' := map (bcast [EvPrepare]) ms in
    step_ok true c ms c' ms'.
  Proof.
    intros Hst Hne c' ms'. destruct expire_drop as [S1 T1]. pose proof (sg_c _ _ S1) as W1.
    assert (Hnp : c_st (c1x c x) <> CPreparing) by (unfold c1x; cbn [c_st]; destruct Hst as [E|E]; rewrite E; discriminate).
    assert (Hjp : forallb (fun e0 => negb (e_jp e0)) (drop x (c_ents c)) = true).
    { pose proof (ww_jp _ W1) as H. unfold c1x in H. cbn [c_st c_ents] in H. destruct Hst as [E|E]; rewrite E in H; exact H. }
    pose proof (tbl_of_wcw _ W1) as Htbl.
    destruct (stage_all (c1x c x) c' ms [EvPrepare] S1 (wcw_prepare _ _ _ _ Htbl)) as [S2 T2].
    - unfold c'. cbn [c_ents]. apply ids_clear_sp.
    - intros m0 H0 L0. destruct (sg_m _ _ S1 m0 H0) as [Wm Cm]. rewrite (absm_T_sync EvPrepare CPreparing 27 (c1x c x) c' m0); try reflexivity.
      exact (keeps_prepare (c1x c x) m0 W1 Hnp L0 Wm Cm).
    - split.
      + apply (inv_of_stage _ _ S2). unfold c'. apply wfc_prepare; [exact Htbl | exact Hne | apply nonempty_notjoined; assumption].
      + apply mu_lt; [apply map_length|]. assert (E1 : erank c' = 2) by reflexivity. pose proof (erank_le2 c). fold ms' in T2. lia.
  Qed.

  (* ... to an empty table *)
  Lemma case_expire_empty : forall rt, drop x (c_ents c) = [] ->
    let c' := mkC (if rt || cstate_eqb (c_st c) CEmpty then c_gen c else S (c_gen c)) CEmpty [] (c_pend c) (if c_leader c =? x then 0 else c_leader c) in
    step_ok true c ms c' (map (bcast []) ms).
  Proof.
    intros rt Hd c'. destruct expire_drop as [S1 T1]. pose proof (sg_c _ _ S1) as W1.
    assert (Hwc' : wf_c c' = true).
    { apply wf_c_of_parts. constructor; unfold c'; cbn [c_gen c_st c_ents c_pend c_leader ids map nodupb memb existsb cstate_eqb negb orb hd_error is_none forallb];
        try reflexivity; try exact (ww_0p _ W1). apply forallb_forall. intros; reflexivity. }
    assert (He : forall z, memb z (ids (c_ents (c1x c x))) = false) by (intros z; unfold c1x; cbn [c_ents]; rewrite Hd; reflexivity).
    destruct (stage_all (c1x c x) c' ms [] S1 (wf_cw_of_wf _ Hwc')) as [S2 T2].
    - unfold c1x. cbn [c_ents]. rewrite Hd. reflexivity.
    - intros m0 H0 L0. change (bcast [] m0) with m0. destruct (sg_m _ _ S1 m0 H0) as [Wm Cm].
      set (bump := negb (rt || cstate_eqb (c_st c) CEmpty)).
      assert (Hg : c_gen c' = (if bump then S (c_gen (c1x c x)) else c_gen (c1x c x))).
      { unfold c', bump. cbn [c_gen c1x]. destruct (rt || cstate_eqb (c_st c) CEmpty); reflexivity. }
      rewrite (absm_T_empty (c1x c x) c' m0 bump (wcw_zfacts _ W1) eq_refl eq_refl eq_refl Hg (He _) (He _)
                 (gen_le_of _ m0 L0 Cm) (rgen_le_of _ m0 L0 Wm Cm)).
      apply (member_move (c1x c x) m0 W1 L0 Wm Cm (VEmpty bump)). cbn [apost].
      change (a_id_e (absm (c1x c x) m0)) with (memb (m_id m0) (ids (c_ents (c1x c x)))).
      change (a_f_e (absm (c1x c x) m0)) with (memb (focus_of m0) (ids (c_ents (c1x c x)))). rewrite !He. reflexivity.
    - split; [exact (inv_of_stage _ _ S2 Hwc')|]. apply mu_lt; [apply map_length|]. assert (E1 : erank c' = 0) by reflexivity. lia.
  Qed.
End Expire.

(* C06, convergence on the quiet-period model (model/C06_Converge.v): the lemmas under the four theorems of props/C06.v.
   From [step_facts] (the invariant is kept; the variant [mu] goes down on every step that is not a no-op, never up)
   and [progress_all]: an execution makes at most [mu s] real steps, and under the invariant [mu] is 0 exactly in the
   converged states, which therefore only admit no-op heartbeat / commit exchanges. *)
From Coq Require Import ZArith List Bool Arith Lia.
From Verif Require Import DispatchActs HeartbeatDispatch JoinRetryDispatch JoinDispatch SyncDispatch CommitDispatch
  C06_Converge C06_conv_lib C06_conv_abs C06_conv_checks C06_conv_step C06_conv_final C06_conv_progress.
Import ListNotations.
Local Open Scope nat_scope.

Lemma hb_ok_react : forall m, recv_hb 0 m = (if m_id m =? 0 then set_hb false (set_hbin None m) else set_hbin None m).
Proof. intros m. unfold recv_hb. reflexivity. Qed.

Lemma cm_ok_react : forall m, recv_cm 0 m = set_cmin None m.
Proof. intros m. reflexivity. Qed.

Lemma settled_live : forall c m, settled c m = true -> m_live m = true ->
  m_ph m = PIdle /\ m_rejoin m = false /\ m_hb m = true /\ m_ck m = CkOk /\ m_inbox m = None
  /\ (m_id m =? 0) = false /\ memb (m_id m) (ids (c_ents c)) = true /\ (m_gen m =? c_gen c) = true
  /\ ok_or_none (m_hbin m) = true /\ ok_or_none (m_cmin m) = true.
Proof.
  intros c m H L. unfold settled, settled_a, absm in H. pcbn_in H. rewrite L in H. cbn [negb orb] in H.
  apply andb_true_iff in H; destruct H as [H Scm]. apply andb_true_iff in H; destruct H as [H Shb].
  apply andb_true_iff in H; destruct H as [H Sge]. apply andb_true_iff in H; destruct H as [H Sie].
  apply andb_true_iff in H; destruct H as [H Siz]. apply andb_true_iff in H; destruct H as [H Sib].
  apply andb_true_iff in H; destruct H as [H Sck]. apply andb_true_iff in H; destruct H as [H Sh].
  apply andb_true_iff in H; destruct H as [Sph Srj]. apply negb_true_iff in Srj, Siz.
  repeat split; try assumption.
  - destruct (m_ph m); try discriminate; reflexivity.
  - destruct (m_ck m); try discriminate; reflexivity.
  - unfold ib_of in *. destruct (m_inbox m) as [[? ?|?]|]; try discriminate; reflexivity.
Qed.

Lemma step_mu : forall s l s', inv_b s = true -> step s l = Some s' ->
  inv_b s' = true /\ (noop_b s l = false -> mu s' < mu s) /\ mu s' <= mu s.
Proof.
  intros s l s' Hi Hs. destruct (step_facts s l s' Hi Hs) as [A B]. split; [exact A|]. unfold mu_behaves in B.
  destruct (noop_b s l); cbn [negb] in B; split; [discriminate | exact B | intros _; exact B | lia].
Qed.

Lemma run_bound : forall ls s s', inv_b s = true -> run s ls = Some s' ->
  inv_b s' = true /\ mu s' + count_real s ls <= mu s.
Proof.
  induction ls as [|l r IH]; intros s s' Hi Hr; cbn [run count_real] in *.
  - inversion Hr; subst. split; [assumption | lia].
  - destruct (step s l) as [s1|] eqn:E; [|discriminate].
    destruct (step_mu s l s1 Hi E) as (Hi1 & A & B). destruct (IH s1 s' Hi1 Hr) as [C D]. split; [exact C|].
    destruct (noop_b s l); [lia | specialize (A eq_refl); lia].
Qed.

Lemma mu_zero_converged : forall s, inv_b s = true -> mu s = 0 -> converged_b s = true.
Proof.
  intros s Hi Hm. destruct (converged_b s) eqn:C; [reflexivity|]. exfalso.
  destruct (progress_all s Hi C) as (l & s1 & E & [N | (l2 & s2 & E2 & N2)]).
  - destruct (step_mu s l s1 Hi E) as (_ & A & _). specialize (A N). lia.
  - destruct (step_mu s l s1 Hi E) as (Hi1 & _ & B). destruct (step_mu s1 l2 s2 Hi1 E2) as (_ & A2 & _). specialize (A2 N2). lia.
Qed.

Lemma converged_mu0 : forall s, inv_b s = true -> converged_b s = true -> mu s = 0.
Proof.
  intros [c ms] Hi Hc. pose proof (inv_unpack c ms Hi) as Hinv. unfold converged_b in Hc. cbn [s_c s_ms] in Hc.
  apply andb_true_iff in Hc. destruct Hc as [Hc Hents]. apply andb_true_iff in Hc. destruct Hc as [Hst Hset].
  assert (Hst' : c_st c = CStable \/ c_st c = CEmpty).
  { apply orb_true_iff in Hst. destruct Hst as [E|E]; destruct (c_st c); try discriminate; auto. }
  rewrite forallb_forall in Hset.
  assert (Hm : forall m, In m ms -> tw c m = 0 /\ mp c m = 0).
  { intros m Hin. destruct (m_live m) eqn:L; [|destruct (dead_trivial c m L) as (_ & _ & T & M & _); auto].
    exact (member_settled c m (wf_cw_of_wf c (iv_wfc _ _ Hinv)) L (iv_wfm _ _ Hinv m Hin) (iv_coh _ _ Hinv m Hin) (Hset m Hin) Hst'). }
  assert (Ht : sum (map (tw c) ms) <= 0 * length ms) by (apply sum_map_bound; intros m Hin; destruct (Hm m Hin); lia).
  assert (Hp : sum (map (mp c) ms) <= 0 * length ms) by (apply sum_map_bound; intros m Hin; destruct (Hm m Hin); lia).
  assert (Ho : count_orphans (mkS c ms) = 0).
  { unfold count_orphans. cbn [s_c s_ms]. induction (c_ents c) as [|e r IH]; [reflexivity|]. cbn [forallb filter] in *.
    apply andb_true_iff in Hents. destruct Hents as [He Hr]. apply andb_true_iff in He. destruct He as [He _].
    apply andb_true_iff in He. destruct He as [He _]. apply negb_true_iff in He. rewrite He. exact (IH Hr). }
  assert (He : erank c = 0) by (unfold erank; destruct Hst' as [-> | ->]; reflexivity).
  unfold mu, trig. cbn [s_c s_ms]. rewrite Ho, He. lia.
Qed.

Definition is_send_join (l : label) : bool := match l with LSendJoin _ _ _ => true | _ => false end.

Lemma converged_members : forall s, inv_b s = true -> converged_b s = true ->
  forall m, In m (s_ms s) -> m_live m = true ->
    m_gen m = c_gen (s_c s) /\ m_hb m = true /\ m_rejoin m = false /\ m_ph m = PIdle
    /\ In (m_id m) (ids (c_ents (s_c s))) /\ c_st (s_c s) = CStable.
Proof.
  intros s Hi H m Hin L. unfold converged_b in H.
  apply andb_true_iff in H. destruct H as [H _]. apply andb_true_iff in H. destruct H as [Hst Hset].
  rewrite forallb_forall in Hset. specialize (Hset m Hin).
  destruct (settled_live _ m Hset L) as (Hp & Hr & Hhb & _ & _ & _ & Hmem & Hg & _).
  apply Nat.eqb_eq in Hg. apply memb_In in Hmem. repeat split; try assumption.
  apply orb_true_iff in Hst. destruct Hst as [E|E]; destruct (c_st (s_c s)) eqn:S; simpl in E; try discriminate; try reflexivity.
  exfalso. destruct s as [c ms]. cbn [s_c s_ms] in *.
  pose proof (wc_empty c (wf_c_parts c (iv_wfc _ _ (inv_unpack c ms Hi)))) as He. rewrite S in He.
  destruct (c_ents c); [inversion Hmem | discriminate].
Qed.

(* by induction on a bound [n] of [mu]: a state that is not converged has a real step within two *)
Theorem quiet_schedule_exists : forall n s, inv_b s = true -> mu s <= n ->
  exists ls s', run s ls = Some s' /\ converged_b s' = true /\ inv_b s' = true.
Proof.
  induction n as [|n IH]; intros s Hi Hm.
  - exists [], s. split; [reflexivity|]. split; [apply (mu_zero_converged s Hi); lia | exact Hi].
  - destruct (converged_b s) eqn:C; [exists [], s; auto|].
    destruct (progress_all s Hi C) as (l & s1 & E & [N | (l2 & s2 & E2 & N2)]).
    + destruct (step_mu s l s1 Hi E) as (Hi1 & A & _). specialize (A N).
      destruct (IH s1 Hi1 ltac:(lia)) as (ls & s' & R & Cv & Iv). exists (l :: ls), s'. cbn [run]. rewrite E. auto.
    + destruct (step_mu s l s1 Hi E) as (Hi1 & _ & B). destruct (step_mu s1 l2 s2 Hi1 E2) as (Hi2 & A2 & _). specialize (A2 N2).
      destruct (IH s2 Hi2 ltac:(lia)) as (ls & s' & R & Cv & Iv). exists (l :: l2 :: ls), s'. cbn [run]. rewrite E, E2. auto.
Qed.

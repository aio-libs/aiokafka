(* C14 — a sticky run that ends because its passes go round in a circle (model/C14_Circle.v) is an accepted log
   like any other ([ctl_log]): its moves are the moves of StickyCtl, only the reason for stopping differs. *)
From Coq Require Import List Bool.
From Verif Require Import C14_Assignors C14_Sticky C14_sticky C14_Circle.
Import ListNotations.

Lemma ctl_run_circle_inv {ppt ms prev st0 assigns reassigns obs r} :
  ctl_run_circle ppt ms prev st0 assigns reassigns obs = Some r ->
  ctl_log ppt ms prev st0 assigns reassigns obs r /\
  end_ok ppt ms prev (scope ppt ms (cr_prebalance r)) (cr_balanced r) = false /\
  circle_b ppt ms prev (scope ppt ms (cr_prebalance r)) (cr_prebalance r) reassigns (cr_balanced r)
    = true.
Proof.
  intros H. unfold ctl_run_circle in H.
  destruct (ctl_assigns ppt ms (drop ppt ms st0) assigns) as [st2|] eqn:E2; [|discriminate].
  destruct (complete_b ppt ms st2) eqn:Ec; simpl in H; [|discriminate].
  destruct (ctl_reassigns ppt ms prev (scope ppt ms st2) (st2, []) reassigns) as [[st3 mv]|] eqn:E3;
    [|discriminate].
  destruct (end_ok ppt ms prev (scope ppt ms st2) st3) eqn:Ee; simpl in H; [discriminate|].
  destruct (circle_b ppt ms prev (scope ppt ms st2) st2 reassigns st3) eqn:Eci; simpl in H; [|discriminate].
  destruct (Bool.eqb obs _); [|discriminate].
  inversion H; subst; simpl. repeat split; eauto.
Qed.


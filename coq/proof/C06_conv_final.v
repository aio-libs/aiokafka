(* Every quiet step preserves the invariant and makes the variant behave ([step_facts]): [step] is taken apart label by
   label into the step cases of C06_conv_cases.v and C06_conv_epoch.v. *)
From Coq Require Import ZArith List Bool Arith Lia.
From Verif Require Import DispatchActs HeartbeatDispatch JoinRetryDispatch JoinDispatch SyncDispatch CommitDispatch
  C06_Converge C06_conv_lib C06_conv_refl C06_conv_abs C06_conv_checks C06_conv_step C06_conv_cases C06_conv_coord C06_conv_epoch.
Import ListNotations.
Local Open Scope nat_scope.

Lemma updm_ext_on : forall i (F1 F2 : member -> member) ms m, NoDup (map m_name ms) -> getm i ms = Some m -> F1 m = F2 m ->
  updm i F1 ms = updm i F2 ms.
Proof.
  intros i F1 F2 ms m ND G E. unfold updm. apply map_ext_in. intros m0 H0. destruct (Nat.eqb_spec (m_name m0) i) as [En|En]; [|reflexivity].
  rewrite (getm_unique i ms m ND G m0 H0 En). exact E.
Qed.

Lemma map_bcast_app : forall a b ms, map (bcast (a ++ b)) ms = map (bcast b) (map (bcast a) ms).
Proof. intros a b ms. rewrite map_map. apply map_ext. intros m. unfold bcast. apply fold_left_app. Qed.

(* the guards of [step] are the ones read on the view *)
Lemma guard_find : forall c m, m_live m && negb (ck_known (m_ck m)) = enabled_a (absm c m) MFind.
Proof. reflexivity. Qed.
Lemma guard_hbsend : forall c m, m_live m && m_hb m && is_none (m_hbin m) && ck_known (m_ck m) = enabled_a (absm c m) MHbSend.
Proof. intros c m. unfold enabled_a, absm. pcbn. rewrite !andb_assoc. reflexivity. Qed.
Lemma guard_cmsend : forall c m,
  m_live m && ph_eqb (m_ph m) PIdle && is_none (m_inbox m) && is_none (m_cmin m) && ck_known (m_ck m) && can_commit m
  = enabled_a (absm c m) MCmSend.
Proof.
  intros c m. unfold enabled_a. change (a_ib (absm c m)) with (ib_of m). rewrite nib_inbox, !andb_assoc. reflexivity.
Qed.
Lemma guard_sendsync : forall c m,
  m_live m && ph_eqb (m_ph m) PJoined && is_none (m_inbox m) && ck_known (m_ck m) = enabled_a (absm c m) MSendSync.
Proof.
  intros c m. unfold enabled_a, sync_ready_a. change (a_ib (absm c m)) with (ib_of m). rewrite nib_inbox, !andb_assoc. reflexivity.
Qed.
Lemma guard_sendjoin : forall c m,
  m_live m && ph_eqb (m_ph m) PIdle && is_none (m_inbox m) && is_none (m_cmin m) && ck_known (m_ck m) && m_rejoin m
  = enabled_a (absm c m) MSendJoin.
Proof.
  intros c m. unfold enabled_a, join_ready_a. change (a_ib (absm c m)) with (ib_of m). rewrite nib_inbox, !andb_assoc. reflexivity.
Qed.

(* what the coordinator does with a request, by cases *)
Lemma maybe_complete_spec : forall cP, c_st cP = CPreparing -> c_ents cP <> [] ->
  maybe_complete cP = if all_joined (c_ents cP) then (c3_of cP, [EvJoinDone (S (c_gen cP))]) else (cP, []).
Proof.
  intros cP Hst Hne. unfold maybe_complete. rewrite Hst. destruct (c_ents cP) eqn:E; [congruence|]. rewrite <- E.
  destruct (all_joined (c_ents cP)); [|reflexivity]. unfold c3_of. rewrite E. reflexivity.
Qed.

Lemma join_known_c1 : forall c x,
  join_known c x =
  (let isnew := negb (memb x (ids (c_ents c))) in
   match c_st c with
   | CEmpty => let (c2, o) := prepare_complete (c1_of c x) in (c2, Parked x, o)
   | CStable => if isnew || (x =? c_leader c) then let (c2, o) := prepare_complete (c1_of c x) in (c2, Parked x, o)
                else (mkC (c_gen c) (c_st c) (set_jp x false (ents1 (c_ents c) x)) (remove_id x (c_pend c)) (c_leader c),
                      Immediate x (RpJoin 0 (c_gen c)), [])
   | CCompleting => if isnew then let (c2, o) := prepare_complete (c1_of c x) in (c2, Parked x, o)
                    else (mkC (c_gen c) (c_st c) (set_jp x false (ents1 (c_ents c) x)) (remove_id x (c_pend c)) (c_leader c),
                          Immediate x (RpJoin 0 (c_gen c)), [])
   | CPreparing => let (c2, o) := maybe_complete (c1_of c x) in (c2, Parked x, o)
   end).
Proof. intros c x. unfold join_known, c1_of, ents1. reflexivity. Qed.

Lemma prepare_complete_spec : forall c x,
  prepare_complete (c1_of c x) =
  if all_joined (ents1 (c_ents c) x) then (c3_of (c2_of c x), [EvPrepare] ++ [EvJoinDone (S (c_gen c))]) else (c2_of c x, [EvPrepare]).
Proof.
  intros c x. unfold prepare_complete, prepare.
  change (mkC (c_gen (c1_of c x)) CPreparing (clear_sp (c_ents (c1_of c x))) (c_pend (c1_of c x)) (c_leader (c1_of c x))) with (c2_of c x).
  assert (Hne : c_ents (c2_of c x) <> []).
  { unfold c2_of. cbn [c_ents]. pose proof (ents1_nonempty (c_ents c) x). destruct (ents1 (c_ents c) x); [congruence | discriminate]. }
  rewrite (maybe_complete_spec (c2_of c x) eq_refl Hne). unfold c2_of at 1. cbn [c_ents]. rewrite all_joined_clear_sp.
  destruct (all_joined (ents1 (c_ents c) x)); reflexivity.
Qed.

Inductive join_known_view (c : coord) (x : nat) : coord * outcome * list cev -> Prop :=
| jk_immediate : memb x (ids (c_ents c)) = true -> (c_st c = CCompleting \/ c_st c = CStable) ->
    join_known_view c x (c, Immediate x (RpJoin 0 (c_gen c)), [])
| jk_parked : c_st c = CPreparing -> all_joined (ents1 (c_ents c) x) = false ->
    join_known_view c x (c1_of c x, Parked x, [])
| jk_complete : c_st c = CPreparing -> all_joined (ents1 (c_ents c) x) = true ->
    join_known_view c x (c3_of (c1_of c x), Parked x, [EvJoinDone (S (c_gen c))])
| jk_prepare : forall aj, c_st c <> CPreparing -> (memb x (ids (c_ents c)) = false \/ c_st c = CStable) ->
    all_joined (ents1 (c_ents c) x) = aj ->
    join_known_view c x (if aj then (c3_of (c2_of c x), Parked x, [EvPrepare] ++ [EvJoinDone (S (c_gen c))])
                         else (c2_of c x, Parked x, [EvPrepare])).

Lemma join_known_cases : forall c x, wf_c c = true -> join_known_view c x (join_known c x).
Proof.
  intros c x Hc.
  assert (Hprep : c_st c <> CPreparing -> (memb x (ids (c_ents c)) = false \/ c_st c = CStable) ->
            join_known_view c x (let (c2, o) := prepare_complete (c1_of c x) in (c2, Parked x, o))).
  { intros Hnp Htr. rewrite prepare_complete_spec. pose proof (jk_prepare c x _ Hnp Htr eq_refl) as H.
    destruct (all_joined (ents1 (c_ents c) x)); exact H. }
  assert (Hcases : c_st c = CEmpty \/ c_st c = CPreparing \/ c_st c = CCompleting \/ c_st c = CStable) by (destruct (c_st c); auto).
  destruct Hcases as [Hst|[Hst|[Hst|Hst]]].
  - (* Empty: the table is empty, x is new *)
    rewrite join_known_c1, Hst. apply Hprep; [rewrite Hst; discriminate|]. left.
    pose proof (wc_empty c (wf_c_parts c Hc)) as He. rewrite Hst in He. destruct (c_ents c); [reflexivity | discriminate].
  - rewrite join_known_c1, Hst, (maybe_complete_spec (c1_of c x) Hst (ents1_nonempty _ _)). unfold c1_of at 1. cbn [c_ents].
    change (c_gen (c1_of c x)) with (c_gen c). destruct (all_joined (ents1 (c_ents c) x)) eqn:Aj; [apply jk_complete | apply jk_parked]; assumption.
  - destruct (memb x (ids (c_ents c))) eqn:He.
    + rewrite (join_known_immediate c x Hc He (or_introl Hst)). apply jk_immediate; [exact He | left; exact Hst].
    + rewrite join_known_c1, Hst, He. apply Hprep; [rewrite Hst; discriminate | left; reflexivity].
  - destruct (memb x (ids (c_ents c))) eqn:He; [destruct (x =? c_leader c) eqn:El|].
    + rewrite join_known_c1, Hst, He, El. apply Hprep; [rewrite Hst; discriminate | right; exact Hst].
    + rewrite (join_known_immediate c x Hc He (or_intror (conj Hst El))). apply jk_immediate; [exact He | right; exact Hst].
    + rewrite join_known_c1, Hst, He. apply Hprep; [rewrite Hst; discriminate | left; reflexivity].
Qed.

(* a SyncGroup that reaches the coordinator: answered at once with the code read off the view, or (no reply) valid
   in CompletingRebalance *)
Lemma csync_cases : forall c m, ck_stale (m_ck m) = false ->
  match sync_reply (absm c m) with
  | Some code => csync c (m_id m) (m_gen m) = (c, Immediate (m_id m) (RpSync code), [])
  | None => validate c (m_id m) (m_gen m) = 0%Z /\ c_st c = CCompleting
  end.
Proof.
  intros c m St. unfold sync_reply, csync. change (ck_stale (a_ck (absm c m))) with (ck_stale (m_ck m)). change (a_st (absm c m)) with (c_st c).
  rewrite St, <- (validate_abs c m). cbv zeta. destruct (Z.eqb_spec (validate c (m_id m) (m_gen m)) 0) as [E|E]; cbn [negb]; [|reflexivity].
  destruct (c_st c); auto.
Qed.

Lemma finish : forall c' ms' s s' real, Some (mkS c' ms') = Some s' ->
  inv_facts c' ms' /\ mu_behaves real s (mkS c' ms') -> inv_b s' = true /\ mu_behaves real s s'.
Proof. intros c' ms' s s' real E [A B]. inversion E; subst s'. split; [apply inv_pack; exact A | exact B]. Qed.

Section Steps.
  Variables (c : coord) (ms : list member).
  Hypothesis Hinv : inv_facts c ms.

  Lemma step_find : forall i s', step (mkS c ms) (LFind i) = Some s' ->
    inv_b s' = true /\ mu_behaves true (mkS c ms) s'.
  Proof.
    intros i s' Hs. cbn [step s_c s_ms] in Hs. destruct (getm i ms) as [m|] eqn:G; [|discriminate].
    rewrite (guard_find c m) in Hs. destruct (enabled_a (absm c m) MFind) eqn:E; [|discriminate].
    apply (finish _ _ _ _ _ Hs). apply (case_find c ms i m Hinv G E).
  Qed.

  Lemma step_hbsend : forall i s', step (mkS c ms) (LHbSend i) = Some s' ->
    inv_b s' = true /\ mu_behaves (negb (noop_b (mkS c ms) (LHbSend i))) (mkS c ms) s'.
  Proof.
    intros i s' Hs. cbn [step s_c s_ms] in Hs. unfold noop_b, with_m. cbn [s_c s_ms]. destruct (getm i ms) as [m|] eqn:G; [|discriminate].
    rewrite (guard_hbsend c m) in Hs. destruct (enabled_a (absm c m) MHbSend) eqn:E; [|discriminate].
    apply (finish _ _ _ _ _ Hs). apply (case_hbsend c ms i m Hinv G E).
  Qed.

  Lemma step_hbrecv : forall i s', step (mkS c ms) (LHbRecv i) = Some s' ->
    inv_b s' = true /\ mu_behaves (negb (noop_b (mkS c ms) (LHbRecv i))) (mkS c ms) s'.
  Proof.
    intros i s' Hs. cbn [step s_c s_ms] in Hs. unfold noop_b, with_m. cbn [s_c s_ms]. destruct (getm i ms) as [m|] eqn:G; [|discriminate].
    destruct (m_live m) eqn:L; [|discriminate]. destruct (m_hbin m) as [code|] eqn:Hh; [|discriminate].
    apply (finish _ _ _ _ _ Hs). apply (case_hbrecv c ms i m Hinv G code L Hh).
  Qed.

  Lemma step_cmsend : forall i s', step (mkS c ms) (LCmSend i) = Some s' ->
    inv_b s' = true /\ mu_behaves (negb (noop_b (mkS c ms) (LCmSend i))) (mkS c ms) s'.
  Proof.
    intros i s' Hs. cbn [step s_c s_ms] in Hs. unfold noop_b, with_m. cbn [s_c s_ms]. destruct (getm i ms) as [m|] eqn:G; [|discriminate].
    rewrite (guard_cmsend c m) in Hs. destruct (enabled_a (absm c m) MCmSend) eqn:E; [|discriminate].
    apply (finish _ _ _ _ _ Hs). apply (case_cmsend c ms i m Hinv G E).
  Qed.

  Lemma step_cmrecv : forall i s', step (mkS c ms) (LCmRecv i) = Some s' ->
    inv_b s' = true /\ mu_behaves (negb (noop_b (mkS c ms) (LCmRecv i))) (mkS c ms) s'.
  Proof.
    intros i s' Hs. cbn [step s_c s_ms] in Hs. unfold noop_b, with_m. cbn [s_c s_ms]. destruct (getm i ms) as [m|] eqn:G; [|discriminate].
    destruct (m_live m) eqn:L; [|discriminate]. destruct (m_cmin m) as [code|] eqn:Hh; [|discriminate].
    apply (finish _ _ _ _ _ Hs). apply (case_cmrecv c ms i m Hinv G code L Hh).
  Qed.

  Lemma step_recv : forall i s', step (mkS c ms) (LRecv i) = Some s' ->
    inv_b s' = true /\ mu_behaves true (mkS c ms) s'.
  Proof.
    intros i s' Hs. cbn [step s_c s_ms] in Hs. destruct (getm i ms) as [m|] eqn:G; [|discriminate].
    destruct (m_live m) eqn:L; [|discriminate].
    destruct (m_ph m) eqn:P; try discriminate; destruct (m_inbox m) as [[code g|code]|] eqn:I; try discriminate; apply (finish _ _ _ _ _ Hs).
    - apply (case_recvjoin c ms i m Hinv G code g L P I).
    - apply (case_recvsync c ms i m Hinv G code L P I).
  Qed.

  Lemma step_sendsync : forall i s', step (mkS c ms) (LSendSync i) = Some s' ->
    inv_b s' = true /\ mu_behaves true (mkS c ms) s'.
  Proof.
    intros i s' Hs. cbn [step s_c s_ms] in Hs. destruct (getm i ms) as [m|] eqn:G; [|discriminate].
    rewrite (guard_sendsync c m) in Hs. destruct (enabled_a (absm c m) MSendSync) eqn:E; [|discriminate].
    unfold enabled_a in E. apply andb_true_iff in E. destruct E as [L E]. destruct (sync_ready_of c m E) as (P & I & K).
    destruct (ck_stale (m_ck m)) eqn:St.
    - apply (finish _ _ _ _ _ Hs). apply (case_sync_imm c ms i m Hinv G 16 L P I K).
      unfold sync_reply. change (ck_stale (a_ck (absm c m))) with (ck_stale (m_ck m)). rewrite St. reflexivity.
    - pose proof (csync_cases c m St) as Hc. destruct (sync_reply (absm c m)) as [code|] eqn:Hrep.
      + rewrite Hc, map_bcast_nil in Hs. apply (finish _ _ _ _ _ Hs). apply (case_sync_imm c ms i m Hinv G code L P I K Hrep).
      + destruct Hc as [Hval Hst]. unfold csync in Hs. rewrite Hval, Hst in Hs. cbn [Z.eqb negb] in Hs.
        destruct (m_id m =? c_leader c) eqn:El.
        * apply (finish _ _ _ _ _ Hs). apply (case_sync_leader c ms i m Hinv G L P I K St Hst Hval).
        * rewrite map_bcast_nil in Hs. apply (finish _ _ _ _ _ Hs).
          pose proof (case_sync_park c ms i m Hinv G L P I K St Hst Hval El) as H. rewrite Hst in H. exact H.
  Qed.

  Lemma step_sendjoin : forall i v4 y s', step (mkS c ms) (LSendJoin i v4 y) = Some s' ->
    inv_b s' = true /\ mu_behaves true (mkS c ms) s'.
  Proof.
    intros i v4 y s' Hs. cbn [step s_c s_ms] in Hs. destruct (getm i ms) as [m|] eqn:G; [|discriminate].
    rewrite (guard_sendjoin c m) in Hs. destruct (enabled_a (absm c m) MSendJoin) eqn:E; [|discriminate].
    pose proof (join_ready_of c m E) as R. cbn [andb] in Hs.
    destruct (negb (m_id m =? 0) || fresh (mkS c ms) y) eqn:Gd; [|discriminate].
    pose proof (iv_wfc _ _ Hinv) as Hwc. pose proof (iv_names _ _ Hinv) as ND.
    destruct (ck_stale (m_ck m)) eqn:St.
    - apply (finish _ _ _ _ _ Hs). apply (case_join_stale c ms i m Hinv G R). destruct (m_ck m); try discriminate; reflexivity.
    - unfold cjoin in Hs.
      (* the request reaches join_known with the id x: the member's, or the new one *)
      assert (Hknown : join_accepts c ms m y ->
                (let '(c', o, evs) := join_known c (join_target m y) in
                 Some (mkS c' (map (bcast evs) (updm i (join_out o) ms)))) = Some s' ->
                inv_b s' = true /\ mu_behaves true (mkS c ms) s').
      { intros Ha. destruct (join_known_cases c (join_target m y) Hwc) as [He Hst|Hst Aj|Hst Aj|aj Hnp Htr Aj]; intros E2.
        - destruct (known_target c ms m y Ha He) as [Hid Ex]. rewrite map_bcast_nil in E2.
          rewrite (updm_ext_on i _ (join_imm 0 (c_gen c)) ms m ND G) in E2; [|unfold join_imm, apply_outcome, sent_join; rewrite Ex; reflexivity].
          apply (finish _ _ _ _ _ E2). rewrite Ex in He. apply (case_join_immediate c ms i m Hinv G R St Hid He Hst).
        - rewrite map_bcast_nil in E2. apply (finish _ _ _ _ _ E2). apply (case_join_parked c ms i m y Hinv G R St Ha Hst Aj).
        - apply (finish _ _ _ _ _ E2). apply (case_join_complete c ms i m y Hinv G R St Ha Hst Aj).
        - destruct aj.
          + rewrite map_bcast_app in E2. apply (finish _ _ _ _ _ E2). apply (case_join_prepare_complete c ms i m y Hinv G R St Ha Hnp Htr Aj).
          + apply (finish _ _ _ _ _ E2). apply (case_join_prepare c ms i m y Hinv G R St Ha Hnp Htr Aj). }
      destruct (m_id m =? 0) eqn:Ez.
      + apply Nat.eqb_eq in Ez. cbn [negb orb] in Gd.
        assert (Ha : join_accepts c ms m y) by (left; split; assumption).
        destruct v4.
        * rewrite map_bcast_nil in Hs. apply (finish _ _ _ _ _ Hs). apply (case_join_79 c ms i m y Hinv G R St Ez Gd).
        * apply (Hknown Ha). unfold join_target. rewrite Ez. exact Hs.
      + destruct (negb (memb (m_id m) (ids (c_ents c))) && negb (memb (m_id m) (c_pend c))) eqn:Eu.
        * apply andb_true_iff in Eu. destruct Eu as [E1 E2]. apply negb_true_iff in E1, E2.
          rewrite map_bcast_nil, (updm_ext_on i _ (join_imm 25 0) ms m ND G) in Hs; [|reflexivity].
          apply (finish _ _ _ _ _ Hs). apply (case_join_25 c ms i m Hinv G R St Ez E1 E2).
        * assert (Ha : join_accepts c ms m y).
          { right. split; [apply Nat.eqb_neq; exact Ez|]. destruct (memb (m_id m) (ids (c_ents c))); [left; reflexivity|].
            destruct (memb (m_id m) (c_pend c)); [right; reflexivity | discriminate]. }
          apply (Hknown Ha). unfold join_target. rewrite Ez. exact Hs.
  Qed.

  Lemma step_expire : forall x rt s', step (mkS c ms) (LExpire x rt) = Some s' ->
    inv_b s' = true /\ mu_behaves true (mkS c ms) s'.
  Proof.
    intros x rt s' Hs. cbn [step s_c s_ms] in Hs. destruct (find_ent x (c_ents c)) as [e|] eqn:F; [|discriminate].
    destruct (orphan ms e) eqn:Ho; [cbn [andb] in Hs | discriminate].
    destruct (negb (e_jp e) && negb (e_sp e) && (negb rt || cstate_eqb (c_st c) CPreparing)); [|discriminate].
    unfold cexpire in Hs. fold (drop x (c_ents c)) in Hs.
    destruct (drop x (c_ents c)) as [|e0 r] eqn:Ed.
    - apply (finish _ _ _ _ _ Hs). apply (case_expire_empty c ms x e Hinv F Ho rt Ed).
    - assert (Hne : drop x (c_ents c) <> []) by (rewrite Ed; discriminate). rewrite <- Ed in Hs.
      change (mkC (c_gen c) (c_st c) (drop x (c_ents c)) (c_pend c) (if c_leader c =? x then 0 else c_leader c)) with (c1x c x) in Hs.
      destruct (c_st c) eqn:Hst.
      + exfalso. pose proof (wc_empty c (wf_c_parts c (iv_wfc _ _ Hinv))) as He. rewrite Hst in He. cbn in He. unfold find_ent in F. destruct (c_ents c); discriminate.
      + rewrite (maybe_complete_spec (c1x c x) Hst Hne) in Hs. unfold c1x at 1 in Hs. cbn [c_ents] in Hs.
        destruct (all_joined (drop x (c_ents c))) eqn:Aj.
        * apply (finish _ _ _ _ _ Hs). apply (case_expire_complete c ms x e Hinv F Ho Hst Hne Aj).
        * rewrite map_bcast_nil in Hs. apply (finish _ _ _ _ _ Hs). apply (case_expire_waiting c ms x e Hinv F Ho Hst Hne Aj).
      + apply (finish _ _ _ _ _ Hs). apply (case_expire_prepare c ms x e Hinv F Ho (or_intror Hst) Hne).
      + apply (finish _ _ _ _ _ Hs). apply (case_expire_prepare c ms x e Hinv F Ho (or_introl Hst) Hne).
  Qed.

End Steps.

Theorem step_facts : forall s l s', inv_b s = true -> step s l = Some s' ->
  inv_b s' = true /\ mu_behaves (negb (noop_b s l)) s s'.
Proof.
  intros [c ms] l s' Hi Hs. pose proof (inv_unpack c ms Hi) as Hinv. destruct l.
  - apply (step_find c ms Hinv i s' Hs).
  - apply (step_sendjoin c ms Hinv i v4 y s' Hs).
  - apply (step_recv c ms Hinv i s' Hs).
  - apply (step_sendsync c ms Hinv i s' Hs).
  - apply (step_hbsend c ms Hinv i s' Hs).
  - apply (step_hbrecv c ms Hinv i s' Hs).
  - apply (step_cmsend c ms Hinv i s' Hs).
  - apply (step_cmrecv c ms Hinv i s' Hs).
  - apply (step_expire c ms Hinv x rt s' Hs).
Qed.

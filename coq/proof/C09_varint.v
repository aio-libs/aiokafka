(* C09_varint.v — the translated varint functions of aiokafka/record/util.py
   (gen/VarintEnc.v, VarintSize.v, VarintDec.v) against the specification of
   model/C09_Varint.v, and the round-trip / size laws of the specification. *)
From Coq Require Import ZArith List Bool Lia ZifyBool.
From Verif Require Import Imp ImpLemmas Bits C09Bytes C09_Varint VarintEnc VarintSize VarintDec.
Import ListNotations.
Open Scope Z_scope.
Ltac Zify.zify_post_hook ::= Z.to_euclidean_division_equations.

Lemma byte_cases (f g : Z -> bool) :
  forallb (fun b => Bool.eqb (f b) (g b)) (map Z.of_nat (seq 0 256)) = true ->
  forall b, 0 <= b < 256 -> f b = g b.
Proof.
  intros H b Hb. rewrite forallb_forall in H. apply eqb_prop, H.
  apply in_map_iff. exists (Z.to_nat b). split; [lia|]. apply in_seq. lia.
Qed.

Lemma land129 b : 0 <= b < 256 -> (Z.land b 129 =? 0) = (b <? 128) && Z.even b.
Proof. revert b. apply byte_cases. vm_compute. reflexivity. Qed.

Lemma land128 b : 0 <= b < 256 -> (Z.land b 128 =? 0) = (b <? 128).
Proof. revert b. apply byte_cases. vm_compute. reflexivity. Qed.

Lemma lor128 r : 0 <= r < 128 -> Z.lor 128 r = 128 + r.
Proof.
  intros H. rewrite Z.lor_comm. change 128 with (1 * 2 ^ 7).
  rewrite lor_low_high by lia. lia.
Qed.

Lemma lor128_land x : Z.lor 128 (Z.land x 127) = 128 + x mod 128.
Proof. rewrite land_127. apply lor128. lia. Qed.

Lemma shiftr7 x : Z.shiftr x 7 = x / 128.
Proof. rewrite shiftr_div by lia. reflexivity. Qed.

Lemma shiftr_add7 x n : 0 <= n -> Z.shiftr x (n + 7) = Z.shiftr x n / 128.
Proof. intros Hn. rewrite <- Z.shiftr_shiftr by lia. apply shiftr7. Qed.

(* adding one more group of seven bits above the [s] bits of [acc] *)
Lemma group_step acc w s : 0 <= s -> 0 <= acc < 2 ^ s -> 0 <= w ->
  acc + w mod 128 * 2 ^ s + w / 128 * 2 ^ (s + 7) = acc + w * 2 ^ s
  /\ 0 <= acc + w mod 128 * 2 ^ s < 2 ^ (s + 7).
Proof.
  intros Hs Hacc Hw. rewrite Z.pow_add_r by lia. change (2 ^ 7) with 128. nia.
Qed.

Lemma zigzag_bits v : int64 v -> Z.lxor (Z.shiftl v 1) (Z.shiftr v 63) = zigzag v.
Proof.
  unfold int64, INT64_MIN, INT64_MAX, zigzag. intros H.
  rewrite shiftl_mul, shiftr_div by lia. change (2 ^ 1) with 2. change (2 ^ 63) with 9223372036854775808.
  destruct (v <? 0) eqn:E.
  - replace (v / 9223372036854775808) with (-1) by lia.
    rewrite Z.lxor_m1_r. unfold Z.lnot. lia.
  - replace (v / 9223372036854775808) with 0 by lia. rewrite Z.lxor_0_r. lia.
Qed.

Lemma zigzag_range v : int64 v -> 0 <= zigzag v < TWO64.
Proof. unfold int64, INT64_MIN, INT64_MAX, zigzag, TWO64. intros H. destruct (v <? 0) eqn:E; lia. Qed.

Lemma zigzag_fits v : int64 v -> 0 <= zigzag v < 128 ^ Z.of_nat 10.
Proof.
  intros H. apply zigzag_range in H. unfold TWO64 in H.
  change (128 ^ Z.of_nat 10) with 1180591620717411303424. lia.
Qed.

Lemma unzigzag_zigzag v : unzigzag (zigzag v) = v.
Proof.
  unfold unzigzag. pose proof (Zmod_even (zigzag v)) as Hm.
  destruct (Z.even (zigzag v)); unfold zigzag in *; destruct (v <? 0) eqn:E; lia.
Qed.

Lemma unzigzag_bits u : 0 <= u -> Z.lxor (Z.shiftr u 1) (- Z.land u 1) = unzigzag u.
Proof.
  intros Hu. unfold unzigzag. rewrite shiftr_div by lia. change (2 ^ 1) with 2.
  change 1 with (Z.ones 1) at 1. rewrite Z.land_ones by lia. change (2 ^ 1) with 2.
  pose proof (Zmod_even u) as Hm. destruct (Z.even u); rewrite Hm.
  - apply Z.lxor_0_r.
  - change (-(1)) with (-1). rewrite Z.lxor_m1_r. unfold Z.lnot. lia.
Qed.

Lemma leb_enc_small f u : u < 128 -> leb_enc (S f) u = [u].
Proof. intros H. cbn [leb_enc]. replace (u <? 128) with true by lia. reflexivity. Qed.
Lemma leb_enc_big f u : 128 <= u -> leb_enc (S f) u = (128 + u mod 128) :: leb_enc f (u / 128).
Proof. intros H. cbn [leb_enc]. replace (u <? 128) with false by lia. reflexivity. Qed.

Lemma pow128_succ n : 128 ^ Z.of_nat (S n) = 128 * 128 ^ Z.of_nat n.
Proof. rewrite Nat2Z.inj_succ, Z.pow_succ_r by lia. reflexivity. Qed.

(* induction over the groups of a number that fits in [f] of them: the last group, or a
   continuation group before the groups of u / 128, which fit in [f - 1] *)
Lemma leb_groups_ind (P : nat -> Z -> Prop) :
  (forall f u, 0 <= u < 128 -> P (S f) u) ->
  (forall f u, 128 <= u -> 0 <= u / 128 < 128 ^ Z.of_nat f -> (0 < f)%nat -> P f (u / 128) -> P (S f) u) ->
  forall f u, 0 <= u < 128 ^ Z.of_nat f -> (0 < f)%nat -> P f u.
Proof.
  intros Hlast Hcont. induction f as [|f IH]; intros u Hu Hf; [lia|].
  destruct (Z.lt_ge_cases u 128) as [Hs|Hb]; [apply Hlast; lia|].
  rewrite pow128_succ in Hu.
  assert (0 < f)%nat by (destruct f; [change (128 ^ Z.of_nat 0) with 1 in Hu|]; lia).
  apply Hcont; try apply IH; lia.
Qed.

Lemma leb_size_len f : forall u, leb_size f u = blen (leb_enc f u).
Proof.
  induction f as [|f IH]; intros u; [reflexivity|].
  cbn [leb_size leb_enc]. destruct (u <? 128); [reflexivity|].
  rewrite blen_cons, IH. reflexivity.
Qed.

Theorem varint_size_len v : varint_size v = blen (varint_enc v).
Proof. apply leb_size_len. Qed.

Lemma pow128_pred k : 0 < k -> 128 ^ k = 128 * 128 ^ (k - 1).
Proof. intros Hk. rewrite <- Z.pow_succ_r by lia. f_equal. lia. Qed.

(* the numbers of exactly [n] groups *)
Lemma leb_size_eq f : forall u n, (Z.to_nat n <= f)%nat -> 0 < n ->
  n = 1 \/ 128 ^ (n - 1) <= u -> u < 128 ^ n -> leb_size f u = n.
Proof.
  induction f as [|f IH]; intros u n Hf Hn Hlo Hhi; [lia|].
  cbn [leb_size]. destruct (Z.eq_dec n 1) as [->|Hn1].
  - replace (u <? 128) with true by lia. reflexivity.
  - destruct Hlo as [->|Hlo]; [lia|].
    rewrite (pow128_pred n) in Hhi by lia. rewrite (pow128_pred (n - 1)) in Hlo by lia.
    assert (0 < 128 ^ (n - 1 - 1)) by (apply Z.pow_pos_nonneg; lia).
    replace (u <? 128) with false by lia.
    rewrite (IH (u / 128) (n - 1)) by lia. lia.
Qed.

Lemma leb_enc_wfb f : forall u, 0 <= u -> wfb (leb_enc f u).
Proof.
  induction f as [|f IH]; intros u Hu; [constructor|].
  cbn [leb_enc]. destruct (u <? 128) eqn:E.
  - constructor; [unfold wfbyte; lia|constructor].
  - constructor; [unfold wfbyte; lia|]. apply IH. lia.
Qed.

Lemma varint_enc_wfb v : wfb (varint_enc v).
Proof. apply leb_enc_wfb. unfold zigzag. destruct (v <? 0) eqn:E; lia. Qed.

Lemma leb_enc_nonempty f u : 1 <= blen (leb_enc (S f) u).
Proof.
  cbn [leb_enc]. destruct (u <? 128); rewrite blen_cons; [reflexivity|].
  pose proof (blen_nonneg (leb_enc f (u / 128))). lia.
Qed.

Lemma leb_enc_len_le f : forall u, blen (leb_enc f u) <= Z.of_nat f.
Proof.
  induction f as [|f IH]; intros u; [cbn; lia|].
  cbn [leb_enc]. destruct (u <? 128).
  - rewrite blen_cons. change (blen []) with 0. lia.
  - rewrite blen_cons. specialize (IH (u / 128)). lia.
Qed.

Lemma leb_dec_enc : forall f u, 0 <= u < 128 ^ Z.of_nat f -> (0 < f)%nat ->
  forall rest mul acc fuel, (f <= fuel)%nat ->
  leb_dec fuel (leb_enc f u ++ rest) mul acc = Some (acc + u * mul, rest).
Proof.
  refine (leb_groups_ind _ _ _).
  - intros f u Hu rest mul acc [|fuel] Hf; [lia|].
    rewrite leb_enc_small by lia. cbn [app leb_dec].
    replace (u <? 128) with true by lia. rewrite Z.mod_small by lia. reflexivity.
  - intros f u Hu Hq Hpos IH rest mul acc [|fuel] Hf; [lia|].
    rewrite leb_enc_big by lia. cbn [app leb_dec].
    replace (128 + u mod 128 <? 128) with false by lia.
    rewrite IH by lia. f_equal. f_equal.
    replace ((128 + u mod 128) mod 128) with (u mod 128) by lia. lia.
Qed.

Theorem varint_dec_enc v rest : int64 v -> varint_dec (varint_enc v ++ rest) = Some (v, rest).
Proof.
  intros H. unfold varint_dec, varint_enc.
  rewrite (leb_dec_enc 10) by (try apply zigzag_fits; trivial; lia).
  rewrite Z.add_0_l, Z.mul_1_r, unzigzag_zigzag. reflexivity.
Qed.

Lemma varint_enc_len_bounds v : 1 <= blen (varint_enc v) <= 10.
Proof. split; [apply leb_enc_nonempty|apply (leb_enc_len_le 10)]. Qed.

(* the thresholds of the Python function are 128^n - 1, n = 1..9 *)
Theorem size_py_spec v : int64 v -> VarintSize.py v = Ok (varint_size v).
Proof.
  intros H. pose proof (zigzag_fits v H) as Hr.
  unfold VarintSize.py, VarintSize.run, VarintSize.body, VarintSize.init.
  cbv beta zeta delta [VarintSize.set_value VarintSize.v_value] iota.
  rewrite zigzag_bits by exact H. unfold varint_size.
  set (u := zigzag v) in *. change (Z.of_nat 10) with 10 in Hr.
  repeat match goal with |- context [u <=? ?c] =>
    destruct (Z.leb_spec u c); cbn [seq_flow fst snd finish];
    [f_equal; symmetry; apply leb_size_eq; lia|]
  end.
  f_equal. symmetry. apply leb_size_eq; lia.
Qed.

Import VarintEnc.

Lemma while_step_ret {S R} (cond : S -> bool) (body : S -> S * flow R) f s s' r :
  cond s = true -> body s = (s', FRet r) -> while_fuel (Datatypes.S f) cond body s = (s', FRet r).
Proof. intros Hc Hb. cbn [while_fuel]. rewrite Hc, Hb. reflexivity. Qed.
Lemma while_step_next {S R} (cond : S -> bool) (body : S -> S * flow R) f s s' :
  cond s = true -> body s = (s', FNext) ->
  while_fuel (Datatypes.S f) cond body s = while_fuel f cond body s'.
Proof. intros Hc Hb. cbn [while_fuel]. rewrite Hc, Hb. reflexivity. Qed.

(* the general loop, entered with the low group in [bits] and the rest in [value];
   [p] is the function's parameter, which the translated loop carries and never reads *)
Lemma enc_loop : forall f u, 0 <= u < 128 ^ Z.of_nat f -> (0 < f)%nat ->
  forall fuel p i out, (f <= fuel)%nat ->
  exists r' i' out',
    while_fuel fuel (L1_cond p) (L2_body p) (mk (u / 128) (u mod 128) i out) = (mk 0 r' i' out', FNext)
    /\ out' ++ [r'] = out ++ leb_enc f u.
Proof.
  refine (leb_groups_ind _ _ _).
  - intros f u Hu [|fuel] p i out Hf; [lia|].
    exists (u mod 128), i, out. replace (u / 128) with 0 by lia. split; [reflexivity|].
    rewrite leb_enc_small, Z.mod_small by lia. reflexivity.
  - intros f u Hu Hq Hpos IH [|fuel] p i out Hf; [lia|].
    erewrite while_step_next; [|unfold L1_cond; cbn [v_value]; lia|reflexivity].
    cbv beta zeta delta [set_out set_bits set_value set_i v_out v_bits v_value v_i] iota.
    rewrite shiftr7, land_127, lor128 by lia.
    destruct (IH fuel p (i + 1) (out ++ [128 + u mod 128])) as (r' & i' & out' & Hw & Ho); [lia|].
    exists r', i', out'. split; [exact Hw|].
    rewrite Ho, <- app_assoc, leb_enc_big by lia. reflexivity.
Qed.

(* the shifts and masks of the unrolled branches, as / 128 and mod 128 *)
Ltac groups_as_div := rewrite ?lor128_land, ?(shiftr_add7 _ 21), ?(shiftr_add7 _ 14), ?(shiftr_add7 _ 7),
  ?shiftr7, ?land_127 by lia.

(* The function writes the specified bytes; it RETURNS the number of bytes written only for
   encodings of up to 5 bytes (zigzag v <= 0x7FFFFFFFF = 34359738367, the last unrolled
   threshold): for longer ones the general loop returns one less (the value is not used by the
   builders, which measure the buffer).  80 is the fuel translator/units.py gives the loop. *)
Lemma enc_run_spec v : int64 v -> exists s ret, VarintEnc.run v = (s, FRet ret)
  /\ v_out s = varint_enc v /\ (zigzag v <= 34359738367 -> ret = blen (varint_enc v)).
Proof.
  intros H. pose proof (zigzag_fits v H) as Hr.
  unfold VarintEnc.run, VarintEnc.body, VarintEnc.init.
  cbv beta zeta delta [set_out set_bits set_value set_i v_out v_bits v_value v_i] iota.
  rewrite zigzag_bits by exact H. unfold varint_enc.
  set (u := zigzag v) in *. change (Z.of_nat 10) with 10 in Hr.
  repeat match goal with |- context [u <=? ?c] =>
    destruct (Z.leb_spec u c); cbn [seq_flow fst snd];
    [eexists _, _; split; [reflexivity|]; cbn [v_out app]; groups_as_div;
     rewrite ?leb_enc_big, leb_enc_small by lia; split; reflexivity|]
  end.
  destruct (enc_loop 10 u Hr ltac:(lia) 80%nat v 0 []) as (r' & i' & out' & Hw & Ho); [lia|].
  groups_as_div. rewrite Hw. cbn [seq_flow fst snd]. eexists _, _. split; [reflexivity|]. cbn [v_out v_bits].
  rewrite Ho. split; [reflexivity|lia].
Qed.

Theorem enc_py_spec v : int64 v -> VarintEnc.post v = varint_enc v.
Proof.
  intros H. destruct (enc_run_spec v H) as (s & ret & Hrun & Hout & _).
  unfold VarintEnc.post. rewrite Hrun. exact Hout.
Qed.

Theorem enc_py_returns v : int64 v -> zigzag v <= 34359738367 ->
  VarintEnc.py v = Ok (blen (varint_enc v)).
Proof.
  intros H Hs. destruct (enc_run_spec v H) as (s & ret & Hrun & _ & Hret).
  unfold VarintEnc.py. rewrite Hrun, <- (Hret Hs). reflexivity.
Qed.

Import VarintDec.

Lemma index_mid_ok (pre : list Z) x r : py_index_ok (pre ++ x :: r) (blen pre) = true.
Proof.
  apply py_index_ok_true. unfold zlen, blen. rewrite app_length. cbn [List.length]. lia.
Qed.
Lemma index_mid (pre : list Z) x r : py_index 0 (pre ++ x :: r) (blen pre) = x.
Proof.
  rewrite py_index_nonneg by apply blen_nonneg. unfold blen. rewrite Nat2Z.id.
  rewrite app_nth2 by lia. rewrite Nat.sub_diag. reflexivity.
Qed.

Ltac unfdec := cbv beta zeta delta [VarintDec.set_result VarintDec.set_pos VarintDec.set_shift
  VarintDec.set_b VarintDec.v_result VarintDec.v_pos VarintDec.v_shift VarintDec.v_b] iota.

(* The loop of decode_varint_py from any entry state: [acc] holds the [shift] bits read so far.
   [b0] is the stale value of the loop's variable b and [p_pos] the function's parameter; the
   translated loop carries both and reads neither.  70 = 7 bits x 10 groups: with at most that
   many the check `shift >= 64` is not reached before the last group. *)
Lemma dec_loop : forall f w, 0 <= w < 128 ^ Z.of_nat f -> (0 < f)%nat ->
  forall pre0 rest acc shift fuel b0 p_pos, (f <= fuel)%nat ->
  0 <= shift -> shift + 7 * Z.of_nat f <= 70 -> 0 <= acc < 2 ^ shift ->
  let buffer := pre0 ++ leb_enc f w ++ rest in
  exists s',
    while_fuel fuel (VarintDec.L1_cond buffer p_pos) (VarintDec.L2_body buffer p_pos)
               (VarintDec.mk acc (blen pre0) shift b0)
    = (s', FRet (unzigzag (acc + w * 2 ^ shift), blen pre0 + blen (leb_enc f w))).
Proof.
  refine (leb_groups_ind _ _ _).
  - intros f w Hw pre0 rest acc shift [|fuel] b0 p_pos Hfuel Hs Hs70 Hacc buffer; [lia|].
    subst buffer. rewrite leb_enc_small by lia.
    eexists. apply while_step_ret; [reflexivity|].
    unfold VarintDec.L2_body. unfdec.
    cbn [app]. rewrite index_mid_ok, index_mid.
    replace (0 <=? shift) with true by lia.
    rewrite land128 by lia. replace (w <? 128) with true by lia. cbn [negb seq_flow fst snd].
    rewrite land_127, shiftl_mul by lia. rewrite Z.mod_small by lia.
    rewrite lor_low_high by lia.
    rewrite unzigzag_bits by nia. reflexivity.
  - intros f w Hw Hq Hf IH pre0 rest acc shift [|fuel] b0 p_pos Hfuel Hs Hs70 Hacc buffer; [lia|].
    subst buffer. rewrite leb_enc_big by lia.
    destruct (group_step acc w shift) as [Hsum Hacc']; try lia.
    specialize (IH (pre0 ++ [128 + w mod 128]) rest (acc + w mod 128 * 2 ^ shift)
                   (shift + 7) fuel (128 + w mod 128) p_pos).
    cbv zeta in IH. rewrite <- app_assoc, blen_app, Hsum in IH. cbn [app] in IH.
    change (blen [_]) with 1 in IH.
    destruct IH as (s' & Hs'); try lia.
    exists s'.
    erewrite while_step_next; [| reflexivity |].
    2:{ unfold VarintDec.L2_body. unfdec.
        cbn [app]. rewrite index_mid_ok, index_mid.
        replace (0 <=? shift) with true by lia.
        rewrite land128 by lia.
        replace (128 + w mod 128 <? 128) with false by lia. cbn [negb seq_flow fst snd].
        replace (64 <=? shift + 7) with false by lia.
        rewrite land_127, shiftl_mul by lia.
        replace ((128 + w mod 128) mod 128) with (w mod 128) by lia.
        rewrite lor_low_high by lia. reflexivity. }
    cbn [app]. rewrite Hs', blen_cons. do 3 f_equal. lia.
Qed.

(* decode_varint_py answers a one-byte varint from its first byte alone (`result & 0x81` = 0:
   non-negative; `result & 0x80` = 0: negative), hence the split of u < 128 by parity and
   [land129]; otherwise it enters the loop with the first group read: 9 groups remain, and 11 is
   the fuel translator/units.py gives the loop. *)
Theorem dec_py_spec v pre rest : int64 v ->
  VarintDec.py (pre ++ varint_enc v ++ rest) (blen pre)
  = Ok (v, blen pre + blen (varint_enc v)).
Proof.
  intros H. pose proof (zigzag_fits v H) as Hr. change (Z.of_nat 10) with 10 in Hr.
  unfold varint_enc. set (u := zigzag v) in *.
  assert (Hv : v = unzigzag u) by (subst u; symmetry; apply unzigzag_zigzag).
  unfold VarintDec.py, VarintDec.run, VarintDec.body, VarintDec.init. unfdec.
  destruct (u <? 128) eqn:E.
  - rewrite leb_enc_small by lia. cbn [app].
    rewrite index_mid_ok, index_mid.
    rewrite land129 by lia. rewrite E. cbn [andb].
    pose proof (Zmod_even u) as Hm. destruct (Z.even u) eqn:Ev.
    + cbn [negb seq_flow fst snd finish]. rewrite Hv. unfold unzigzag. rewrite Ev.
      rewrite shiftr_div by lia. change (2 ^ 1) with 2.
      rewrite blen_cons. reflexivity.
    + cbn [negb seq_flow fst snd]. unfdec. rewrite land128 by lia. rewrite E.
      cbn [negb seq_flow fst snd finish]. rewrite Hv. unfold unzigzag. rewrite Ev.
      rewrite shiftr_div by lia. change (2 ^ 1) with 2.
      change (Z.lnot 0) with (-1). rewrite Z.lxor_m1_r. unfold Z.lnot.
      rewrite blen_cons. do 2 f_equal. lia.
  - rewrite leb_enc_big by lia. cbn [app].
    rewrite index_mid_ok, index_mid.
    rewrite land129 by lia.
    replace (128 + u mod 128 <? 128) with false by lia. cbn [andb negb seq_flow fst snd]. unfdec.
    rewrite land128 by lia.
    replace (128 + u mod 128 <? 128) with false by lia. cbn [andb negb seq_flow fst snd]. unfdec.
    rewrite land_127. replace ((128 + u mod 128) mod 128) with (u mod 128) by lia.
    pose proof (dec_loop 9 (u / 128)) as L.
    specialize (L ltac:(lia) ltac:(lia) (pre ++ [128 + u mod 128]) rest (u mod 128) 7 11%nat 0 (blen pre)).
    cbv zeta in L. rewrite <- app_assoc in L. cbn [app] in L.
    rewrite blen_app in L. change (blen [128 + u mod 128]) with 1 in L.
    destruct L as (s' & Hs'); try lia.
    rewrite Hs'. cbn [finish snd]. rewrite Hv. f_equal. f_equal.
    + f_equal. change (2 ^ 7) with 128. lia.
    + rewrite blen_cons. lia.
Qed.

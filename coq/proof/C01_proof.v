(* C01_proof.v — invariants of the producer/leader model (model/Producer.v) *)
From Coq Require Import ZArith List Bool Lia ZifyBool.
From Verif Require Import ListFacts Imp IncrSeq Producer.
Import ListNotations.
Open Scope Z_scope.

(* the translated increment_sequence_number *)
Lemma incr_eq s n : incr s n = if 2147483647 <? s + n then s + n - 4294967296 else s + n.
Proof.
  unfold incr, IncrSeq.post, IncrSeq.run, IncrSeq.body, IncrSeq.init.
  cbv beta zeta delta [IncrSeq.set_seq IncrSeq.set_seqtp IncrSeq.v_seq IncrSeq.v_seqtp] iota.
  change (2147483648 - 1) with 2147483647.
  destruct (2147483647 <? s + n); reflexivity.
Qed.

Lemma incr_nowrap s n : s + n <= 2147483647 -> incr s n = s + n.
Proof. intros H. rewrite incr_eq. destruct (2147483647 <? s + n) eqn:E; lia. Qed.

(* the wrap-around clause of C01 fails: at the top of the range the function goes negative where Kafka wraps to 0 *)
Lemma incr_wrap_negative : incr 2147483647 1 = -2147483648 /\ incr_kafka 2147483647 1 = 0.
Proof. split; reflexivity. Qed.

Lemma verdict_in_sequence b sq n : sq = bexpected b -> broker_verdict b sq n = Appended.
Proof. intros ->. unfold broker_verdict. rewrite Z.eqb_refl. reflexivity. Qed.

(* the batch the leader appended last is never out of order *)
Lemma verdict_of_last ls lc : broker_verdict (Some (ls, lc)) ls lc <> OutOfOrder.
Proof.
  unfold broker_verdict. destruct (ls =? bexpected _); [discriminate|].
  rewrite !Z.eqb_refl. discriminate.
Qed.

(* ... and it is not in sequence again as long as its length is below the modulus *)
Lemma last_not_expected ls lc : 0 < lc < 2147483648 -> ls <> bexpected (Some (ls, lc)).
Proof.
  intros H E. cbn [bexpected] in E.
  pose proof (Z.mod_eq (ls + lc) 2147483648 ltac:(discriminate)). lia.
Qed.

Lemma snoc_last_spec q r q' : snoc_last q r = Some q' ->
  concat q' = concat q ++ [r] /\ (Forall (fun b => b <> []) q -> Forall (fun b => b <> []) q').
Proof.
  revert q'. induction q as [|b tl IH]; intros q' H; [discriminate|].
  destruct tl as [|b2 tl2].
  - injection H as <-. cbn. rewrite !app_nil_r. split; [reflexivity|].
    intros _. constructor; [|constructor]. destruct b; discriminate.
  - change (snoc_last (b :: b2 :: tl2) r) with
      (match snoc_last (b2 :: tl2) r with Some tl' => Some (b :: tl') | None => None end) in H.
    destruct (snoc_last (b2 :: tl2) r) as [tl'|]; [|discriminate].
    injection H as <-. destruct (IH tl' eq_refl) as (Hc & Hf).
    cbn [concat]. rewrite Hc, app_assoc. split; [reflexivity|].
    intros HF. constructor; [exact (Forall_inv HF)|exact (Hf (Forall_inv_tail HF))].
Qed.

Definition with_pend (s : st) (p : option pbatch) : st :=
  mkSt (uq s) p (nseq s) (blog s) (bstate s) (acked s) (failed s) (accepted s) (base s).
Definition reloc (p : pbatch) (l : loc) : pbatch := mkPB (precs p) (pseq p) l (inlog p).

(* [step] read as cases, by what it does ([step_Step] below) *)
Inductive Step (s : st) : ev -> st -> option verdict -> Prop :=
| SAccept r nb q' :
    concat q' = concat (uq s) ++ [r] ->
    (Forall (fun b => b <> []) (uq s) -> Forall (fun b => b <> []) q') ->
    Step s (Accept r nb)
      (mkSt q' (pend s) (nseq s) (blog s) (bstate s) (acked s) (failed s) (accepted s ++ [r]) (base s))
      None
| SDrain b rest : pend s = None -> uq s = b :: rest ->
    Step s Drain
      (mkSt rest (Some (mkPB b (nseq s) Sent false)) (incr (nseq s) (zlen' b))
            (blog s) (bstate s) (acked s) (failed s) (accepted s) (base s))
      None
| SRedrain p : pend s = Some p -> ploc p = InQueue ->
    Step s Drain (with_pend s (Some (reloc p Sent))) None
| SAppend p : pend s = Some p -> ploc p = Sent -> pseq p = bexpected (bstate s) ->
    Step s Arrive
      (mkSt (uq s) (Some (mkPB (precs p) (pseq p) (Applied Appended) true)) (nseq s)
            (blog s ++ [(precs p, pseq p)]) (Some (pseq p, zlen' (precs p)))
            (acked s) (failed s) (accepted s) (base s))
      (Some Appended)
| SRefuse p v : pend s = Some p -> ploc p = Sent ->
    broker_verdict (bstate s) (pseq p) (zlen' (precs p)) = v -> v <> Appended ->
    Step s Arrive (with_pend s (Some (reloc p (Applied v)))) (Some v)
| SReplyOk p : pend s = Some p -> ploc p = Applied Appended \/ ploc p = Applied Duplicate ->
    Step s ReplyOk
      (mkSt (uq s) None (nseq s) (blog s) (bstate s) (acked s ++ precs p) (failed s) (accepted s) (base s))
      None
| SRetry p : pend s = Some p -> ploc p <> InQueue ->
    Step s ReplyRetry (with_pend s (Some (reloc p InQueue))) None
| SFatal p : pend s = Some p -> ploc p = Applied OutOfOrder ->
    Step s ReplyFatal
      (mkSt (uq s) None (nseq s) (blog s) (bstate s) (acked s) (failed s ++ precs p) (accepted s) (base s))
      None
| SFlush : pend s = None -> uq s = [] -> Step s FlushRet s None.

Lemma step_Step s e s' ov : step s e = Some (s', ov) -> Step s e s' ov.
Proof.
  destruct e; cbn [step].
  - destruct newb.
    + intros [= <- <-]. apply SAccept.
      * rewrite concat_app. reflexivity.
      * intros HF. apply Forall_app. split; [exact HF|]. constructor; [discriminate|constructor].
    + destruct (snoc_last (uq s) r) as [q'|] eqn:E; [|discriminate]. intros [= <- <-].
      apply SAccept; apply (snoc_last_spec _ _ _ E).
  - destruct (pend s) as [p|] eqn:Ep.
    + destruct (ploc p) eqn:El; try discriminate. intros [= <- <-]. now apply SRedrain.
    + destruct (uq s) as [|b rest] eqn:Eq; [discriminate|]. intros [= <- <-]. now apply SDrain.
  - destruct (pend s) as [p|] eqn:Ep; [|discriminate]. destruct (ploc p) eqn:El; try discriminate.
    destruct (broker_verdict _ _ _) eqn:Ev; intros [= <- <-].
    + apply SAppend; try assumption. unfold broker_verdict in Ev.
      destruct (Z.eqb_spec (pseq p) (bexpected (bstate s))); [assumption|].
      destruct (bstate s) as [[ls lc]|]; [destruct (_ && _)|]; discriminate.
    + apply (SRefuse s p Duplicate); [assumption..|discriminate].
    + apply (SRefuse s p OutOfOrder); [assumption..|discriminate].
  - destruct (pend s) as [p|] eqn:Ep; [|discriminate].
    destruct (ploc p) as [| |[]] eqn:El; try discriminate; intros [= <- <-]; apply SReplyOk; auto.
  - destruct (pend s) as [p|] eqn:Ep; [|discriminate].
    destruct (ploc p) eqn:El; try discriminate; intros [= <- <-]; apply SRetry; congruence.
  - destruct (pend s) as [p|] eqn:Ep; [|discriminate].
    destruct (ploc p) as [| |[]] eqn:El; try discriminate. intros [= <- <-]. now apply SFatal.
  - destruct (pend s) eqn:Ep; [discriminate|]. destruct (uq s) eqn:Eq; [|discriminate].
    intros [= <- <-]. now apply SFlush.
Qed.

(* the records of the drained batch while the leader has not appended it: stamped, not yet in the log *)
Definition pnl (s : st) : list nat :=
  match pend s with Some p => if inlog p then [] else precs p | None => [] end.

Record Inv (s : st) : Prop := {
  (* with the bound on the run, every sequence below lies in [0, 2^31), where neither [incr] nor the leader's mod wraps *)
  i_base : 0 <= base s;
  (* the client's counter: the start plus every record stamped so far *)
  i_nseq : nseq s = base s + zlen' (log_records s) + zlen' (pnl s);
  (* the sequence the leader expects next: the start plus every record it appended *)
  i_exp : bexpected (bstate s) = base s + zlen' (log_records s);
  (* the drained batch is never out of order; until appended it carries the sequence the leader expects and is on
     its way; once appended it is the leader's last batch, so that a retry of it is answered Duplicate *)
  i_pend : forall p, pend s = Some p ->
      precs p <> [] /\ ploc p <> Applied OutOfOrder /\
      (inlog p = false -> pseq p = base s + zlen' (log_records s) /\
                          (ploc p = InQueue \/ ploc p = Sent)) /\
      (inlog p = true -> bstate s = Some (pseq p, zlen' (precs p)) /\
                         exists pre, blog s = pre ++ [(precs p, pseq p)]);
  (* log, drained batch, queue: the accepted records in acceptance order *)
  i_recs : log_records s ++ pnl s ++ concat (uq s) = accepted s;
  i_ack : incl (acked s) (log_records s);
  (* a drained batch has records: once appended it is not in sequence a second time ([last_not_expected]) *)
  i_ne : Forall (fun b => b <> []) (uq s)
}.

Lemma zlen'_app a b : zlen' (a ++ b) = zlen' a + zlen' b.
Proof. unfold zlen'. rewrite app_length. lia. Qed.
Lemma zlen'_nonneg a : 0 <= zlen' a. Proof. unfold zlen'. lia. Qed.
Lemma zlen'_pos a : a <> [] -> 0 < zlen' a.
Proof. destruct a; [congruence|]. unfold zlen'. cbn [length]. lia. Qed.

Lemma log_records_app (l : list (list nat * Z)) x (sq : Z) :
  concat (map fst (l ++ [(x, sq)])) = concat (map fst l) ++ x.
Proof. rewrite map_app, concat_app. cbn. rewrite app_nil_r. reflexivity. Qed.

Lemma inv_init0 : Inv init0.
Proof.
  constructor; cbn; try lia; try reflexivity.
  - intros p H; discriminate.
  - intros x H; exact H.
  - constructor.
Qed.

Lemma inv_init_at ls lc : Inv (init_at ls lc).
Proof.
  constructor; cbn; try lia; try reflexivity.
  - apply Z.mod_pos_bound. reflexivity.
  - intros p H; discriminate.
  - intros x H; exact H.
  - constructor.
Qed.

(* the drained batch changes place only *)
Lemma inv_reloc s p l : Inv s -> pend s = Some p -> l <> Applied OutOfOrder ->
  (inlog p = false -> l = InQueue \/ l = Sent) -> Inv (with_pend s (Some (reloc p l))).
Proof.
  intros [Ib In Ie Ip Ir Ia Ine] Ep Hl Hq. destruct (Ip p Ep) as (Hne & _ & Hf & Ht).
  assert (E : pnl (with_pend s (Some (reloc p l))) = pnl s) by (unfold pnl; rewrite Ep; reflexivity).
  constructor; rewrite ?E; try assumption.
  intros p' [= <-]. split; [exact Hne|]. split; [exact Hl|]. split; [|exact Ht].
  intros Hi. split; [apply Hf, Hi|apply Hq, Hi].
Qed.

Lemma step_inv s e s' ov :
  Inv s -> base s + zlen' (accepted s) + count_accepts [e] < 2147483648 -> step s e = Some (s', ov) ->
  Inv s' /\ ov <> Some OutOfOrder /\ failed s' = failed s /\
  base s' + zlen' (accepted s') = base s + zlen' (accepted s) + count_accepts [e].
Proof.
  intros I B H. apply step_Step in H. pose proof I as [Ib In Ie Ip Ir Ia Ine].
  rewrite <- Ir, !zlen'_app in B. unfold log_records in *.
  pose proof (zlen'_nonneg (concat (map fst (blog s)))). pose proof (zlen'_nonneg (concat (uq s))).
  destruct H as [r nb q' Hc Hf|b rest Ep Eq|p Ep El|p Ep El Es|p v Ep El Ev Hv|p Ep El|p Ep El|p Ep El|Ep Eq].
  (* but for a refused arrival and a fatal reply, all is plain except the invariant *)
  all: try (split; [|split; [discriminate|split; [reflexivity|cbn; rewrite ?zlen'_app; cbn; lia]]]).
  - constructor; try assumption; cbn.
    + rewrite Hc, <- Ir, !app_assoc. reflexivity.
    + exact (Hf Ine).
  - unfold pnl in *. rewrite Ep in *. rewrite Eq in *. cbn [concat app] in *.
    rewrite zlen'_app in B. cbn in B. pose proof (zlen'_pos b (Forall_inv Ine)). pose proof (zlen'_nonneg (concat rest)).
    change (zlen' []) with 0 in *.
    constructor; cbn; try assumption.
    + rewrite incr_nowrap; lia.
    + intros p' [= <-]; cbn. split; [exact (Forall_inv Ine)|]. split; [discriminate|].
      split; [intros _; split; [lia|tauto]|discriminate].
    + exact (Forall_inv_tail Ine).
  - apply inv_reloc; [assumption..|discriminate|tauto].
  - destruct (Ip p Ep) as (Hne & _ & Hf & Ht). pose proof (zlen'_pos _ Hne).
    unfold pnl in *. rewrite Ep in *. destruct (inlog p); cbn in B.
    + (* already in the log: in sequence again only after a whole turn of the sequence space *)
      exfalso. destruct (Ht eq_refl) as (Hbs & pre & Hpre). unfold log_records in B.
      rewrite Hpre, log_records_app, zlen'_app in B. pose proof (zlen'_nonneg (concat (map fst pre))).
      rewrite Hbs in Es. apply last_not_expected in Es; [exact Es|lia].
    + destruct (Hf eq_refl) as (Hs & _).
      constructor; unfold log_records, pnl in *; cbn; rewrite ?log_records_app, ?zlen'_app; try assumption.
      * change (zlen' []) with 0. lia.
      * rewrite Z.mod_small; lia.
      * intros p' [= <-]; cbn. split; [exact Hne|]. split; [discriminate|].
        split; [discriminate|]. intros _. split; [reflexivity|]. exists (blog s). reflexivity.
      * rewrite <- app_assoc. exact Ir.
      * intros x Hx. apply in_or_app. left. apply Ia, Hx.
  - (* not in sequence: the batch is in the log already, and the leader says Duplicate *)
    destruct (Ip p Ep) as (_ & _ & Hf & Ht).
    assert (Hi : inlog p = true).
    { destruct (inlog p); [reflexivity|]. destruct (Hf eq_refl) as (Hs & _).
      rewrite verdict_in_sequence in Ev by congruence. congruence. }
    destruct (Ht Hi) as (Hbs & _). rewrite Hbs in Ev. pose proof (verdict_of_last (pseq p) (zlen' (precs p))).
    split; [|split; [congruence|split; [reflexivity|cbn; lia]]].
    apply inv_reloc; [assumption..|congruence|congruence].
  - destruct (Ip p Ep) as (_ & _ & Hf & Ht).
    assert (Hi : inlog p = true).
    { destruct (inlog p); [reflexivity|]. destruct (Hf eq_refl) as (_ & [Hx|Hx]), El; congruence. }
    destruct (Ht Hi) as (_ & pre & Hpre). unfold pnl in *. rewrite Ep, Hi in *.
    constructor; cbn; try assumption; [discriminate|].
    intros x Hx. apply in_app_or in Hx. destruct Hx as [Hx|Hx]; [apply Ia, Hx|].
    unfold log_records. rewrite Hpre, log_records_app. apply in_or_app. right. exact Hx.
  - apply inv_reloc; [assumption..|discriminate|tauto].
  - (* ReplyFatal follows an OutOfOrder verdict only, which the invariant excludes *)
    destruct (Ip p Ep) as (_ & Hoo & _). contradiction.
  - assumption.
Qed.

Lemma count_accepts_cons e tr : count_accepts (e :: tr) = count_accepts [e] + count_accepts tr.
Proof. unfold count_accepts. cbn [filter]. destruct e; cbn [length]; lia. Qed.

Lemma count_accepts_nonneg tr : 0 <= count_accepts tr.
Proof. unfold count_accepts. lia. Qed.

Lemma run_inv : forall tr s s' vs,
  Inv s -> base s + zlen' (accepted s) + count_accepts tr < 2147483648 ->
  run s tr = Some (s', vs) ->
  Inv s' /\ Forall (fun v => v <> OutOfOrder) vs /\ failed s' = failed s.
Proof.
  induction tr as [|e tr IH]; intros s s' vs I B H; cbn [run] in H.
  - injection H as <- <-. split; [assumption|]. split; [constructor|reflexivity].
  - destruct (step s e) as [[s1 ov]|] eqn:E; [|discriminate].
    destruct (run s1 tr) as [[s2 vs2]|] eqn:E2; [|discriminate]. injection H as <- <-.
    rewrite count_accepts_cons in B. pose proof (count_accepts_nonneg tr).
    destruct (step_inv s e s1 ov I) as (I1 & Hov & Hf1 & B1); [lia|exact E|].
    destruct (IH s1 s2 vs2 I1) as (I2 & Hvs & Hf2); [lia|exact E2|].
    split; [assumption|]. split; [|congruence].
    destruct ov as [v|]; [constructor; [congruence|assumption]|assumption].
Qed.

(* The idempotent producer, from any state of the partition that satisfies the invariant, as long
   as the sequence counter does not wrap within the run:
   - never a gap, never a reused sequence: every arrival is in sequence or a whole duplicate;
   - the leader's log is a prefix of the accepted records, in acceptance order;
   - at most once;
   - every acknowledged record is in the log;
   - no record fails. *)
Theorem idem_run_correct s tr s' vs :
  Inv s -> base s + zlen' (accepted s) + count_accepts tr < 2147483648 ->
  run s tr = Some (s', vs) ->
  Forall (fun v => v = Appended \/ v = Duplicate) vs /\
  (exists rest, accepted s' = log_records s' ++ rest) /\
  (NoDup (accepted s') -> NoDup (log_records s')) /\
  incl (acked s') (log_records s') /\
  failed s' = failed s.
Proof.
  intros I B H. destruct (run_inv tr s s' vs I B H) as ([_ _ _ _ Ir Ia _] & Hvs & Hf).
  split; [|split; [|split; [|split]]].
  - eapply Forall_impl; [|exact Hvs]. intros v Hv. destruct v; tauto.
  - exists (pnl s' ++ concat (uq s')). symmetry. exact Ir.
  - intros Hnd. rewrite <- Ir in Hnd. eapply NoDup_app_l. exact Hnd.
  - exact Ia.
  - exact Hf.
Qed.

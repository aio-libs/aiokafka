(* C16_proof.v — proofs about model/C16_TxnApi.v.
   The per-step facts are finite: well-formed state x call x fault is a table of 536 x 10 x 65
   entries (of the 7 x 2^8 x 19 states [wfb] passes 8 READY + 256 IN_TXN + 128 ABORTABLE + 144 FATAL;
   a fault is none or one of 14 codes + 2 drops at one of 4 positions).  A call the protocol does not
   allow stops at a guard of the code whatever the fault ([refused]), so it passes every obligation by
   an argument ([refused_ok]); without outstanding sends a fault at position 2 or 3 is never met
   ([far_fault], [call_ok_far]); ONE evaluation checks all other entries ([api_facts]: the outcome of
   each call is computed once and tested against every obligation in [call_facts]); [call_fact] lifts
   the three to quantified statements over enumerations proved complete.
   What a single fact says in Prop is proved under its statement in props/C16.v; here stand the step
   lemmas with several users and the inductions over call lists (refinement, accepted language). *)
From Coq Require Import ZArith List Bool Lia.
From Verif Require Import Imp TxnTable C16_TxnApi.
Import ListNotations.

(* decidable equalities, transparent so that the evaluation can run them *)
Definition code_eq_dec (a b : code) : {a = b} + {a <> b}. Proof. decide equality. Defined.
Definition exn_eq_dec (a b : exn) : {a = b} + {a <> b}.
Proof. decide equality. apply code_eq_dec. Defined.
Definition part_eq_dec (a b : part) : {a = b} + {a <> b}. Proof. decide equality. Defined.
Definition pset_eq_dec (a b : pset) : {a = b} + {a <> b}.
Proof. decide equality; apply bool_dec. Defined.
Definition req_eq_dec (a b : req) : {a = b} + {a <> b}.
Proof. decide equality; try apply pset_eq_dec; apply bool_dec. Defined.
Definition result_eq_dec (a b : result) : {a = b} + {a <> b}.
Proof. decide equality; apply exn_eq_dec. Defined.

Definition eqb_of {A} (dec : forall a b : A, {a = b} + {a <> b}) (a b : A) : bool :=
  if dec a b then true else false.
Lemma eqb_of_true {A} dec (a b : A) : eqb_of dec a b = true -> a = b.
Proof. unfold eqb_of. destruct (dec a b); [auto | discriminate]. Qed.
Lemma eqb_of_refl {A} dec (a : A) : eqb_of dec a a = true.
Proof. unfold eqb_of. destruct (dec a a); [auto | congruence]. Qed.

Definition result_eqb := eqb_of result_eq_dec.
Definition reqs_eqb := eqb_of (list_eq_dec req_eq_dec).
(* the two seven-valued enumerations are compared in most guards of the table: a direct match is far
   cheaper to evaluate than the derived decision procedure *)
Definition tst_eqb (a b : tst) : bool :=
  match a, b with
  | UNINIT, UNINIT | READY, READY | IN_TXN, IN_TXN | COMMITTING, COMMITTING | ABORTING, ABORTING
  | ABORTABLE, ABORTABLE | FATAL, FATAL => true
  | _, _ => false
  end.
Definition pstate_eqb (a b : pstate) : bool :=
  match a, b with
  | PUninit, PUninit | PReady, PReady | PInTxn, PInTxn | PCommitting, PCommitting | PAborting, PAborting
  | PAbortableError, PAbortableError | PFatalError, PFatalError => true
  | _, _ => false
  end.
Lemma tst_eqb_true a b : tst_eqb a b = true -> a = b. Proof. destruct a, b; (reflexivity || discriminate). Qed.
Lemma tst_eqb_eq a : tst_eqb a a = true. Proof. destruct a; reflexivity. Qed.
Lemma pstate_eqb_true a b : pstate_eqb a b = true -> a = b.
Proof. destruct a, b; (reflexivity || discriminate). Qed.
Definition werr_eqb := eqb_of (fun a b : option exn =>
  ltac:(decide equality; apply exn_eq_dec) : {a = b} + {a <> b}).
Definition ores_eq_dec (a b : option result) : {a = b} + {a <> b}.
Proof. decide equality; apply result_eq_dec. Defined.
Definition futs_eq_dec (a b : futs) : {a = b} + {a <> b}.
Proof. decide equality; apply ores_eq_dec. Defined.
Definition futs_eqb := eqb_of futs_eq_dec.

(* [rewrite_strat (bottomup (hints b2p)) in H] reads a boolean test of the table as the proposition it decides
   (one pass; [autorewrite] retries every rule over the whole term and is several times dearer) *)
Lemma eqb_of_iff {A} dec (a b : A) : eqb_of dec a b = true <-> a = b.
Proof. split; [apply eqb_of_true | intros ->; apply eqb_of_refl]. Qed.
Lemma tst_eqb_iff a b : tst_eqb a b = true <-> a = b.
Proof. split; [apply tst_eqb_true | intros ->; apply tst_eqb_eq]. Qed.
Global Hint Rewrite andb_true_iff orb_true_iff negb_true_iff implb_true_iff Bool.eqb_true_iff
  @eqb_of_iff tst_eqb_iff : b2p.

Definition all_tst := [UNINIT; READY; IN_TXN; COMMITTING; ABORTING; ABORTABLE; FATAL].
Definition all_code := [E3; E7; E14; E15; E16; E29; E30; E45; E47; E48; E49; E51; E53; EOther].
Definition all_exn := [XIllegalOperation; XAssertion; XProducerFenced; XKafkaError] ++ map XCode all_code.
Definition all_werr : list (option exn) := None :: map Some all_exn.
Definition all_bool := [false; true].
Definition all_states : list tstate :=
  flat_map (fun t => flat_map (fun a => flat_map (fun b => flat_map (fun g => flat_map (fun k =>
  flat_map (fun g0 => flat_map (fun g1 => flat_map (fun n0 => flat_map (fun n1 =>
    map (fun w => mkT t a b g k w g0 g1 n0 n1) all_werr) all_bool) all_bool) all_bool) all_bool)
    all_bool) all_bool) all_bool) all_bool) all_tst.
Definition all_calls := [Begin; Send P0; Send P1; SendOffsets; Commit; Abort; CtxOk; CtxExc;
                         SendNW P0; SendNW P1].
Definition all_fkind := map FErr all_code ++ [FDropBefore; FDropAfter].
Definition all_faults : list fault :=
  None :: flat_map (fun i => map (fun k => Some (i, k)) all_fkind) [I0; I1; I2; I3].

Lemma in_all_tst t : In t all_tst. Proof. destruct t; simpl; tauto. Qed.
Lemma in_all_code c : In c all_code. Proof. destruct c; simpl; tauto. Qed.
Lemma in_all_bool b : In b all_bool. Proof. destruct b; simpl; tauto. Qed.
Lemma in_all_exn e : In e all_exn.
Proof.
  destruct e; try (simpl; tauto).
  unfold all_exn. apply in_or_app. right. apply in_map. apply in_all_code.
Qed.
Lemma in_all_werr w : In w all_werr.
Proof. destruct w; [right; apply in_map; apply in_all_exn | left; reflexivity]. Qed.
Lemma in_all_states s : In s all_states.
Proof.
  destruct s as [t a b g k w g0 g1 n0 n1]. unfold all_states.
  apply in_flat_map; exists t; split; [apply in_all_tst|].
  apply in_flat_map; exists a; split; [apply in_all_bool|].
  apply in_flat_map; exists b; split; [apply in_all_bool|].
  apply in_flat_map; exists g; split; [apply in_all_bool|].
  apply in_flat_map; exists k; split; [apply in_all_bool|].
  apply in_flat_map; exists g0; split; [apply in_all_bool|].
  apply in_flat_map; exists g1; split; [apply in_all_bool|].
  apply in_flat_map; exists n0; split; [apply in_all_bool|].
  apply in_flat_map; exists n1; split; [apply in_all_bool|].
  apply (in_map (fun w0 => mkT t a b g k w0 g0 g1 n0 n1)). apply in_all_werr.
Qed.
Lemma in_all_calls c : In c all_calls.
Proof. destruct c as [ | [|] | | | | | | [|] ]; simpl; tauto. Qed.
Lemma in_all_fkind k : In k all_fkind.
Proof.
  unfold all_fkind. destruct k.
  - apply in_or_app; left. apply in_map. apply in_all_code.
  - apply in_or_app; right; simpl; tauto.
  - apply in_or_app; right; simpl; tauto.
Qed.
Lemma in_all_faults f : In f all_faults.
Proof.
  destruct f as [[i k]|]; [right | left; reflexivity].
  apply in_flat_map. exists i. split; [destruct i; simpl; tauto|].
  apply (in_map (fun k0 => Some (i, k0))). apply in_all_fkind.
Qed.

Definition sweep (P : tstate -> call -> fault -> bool) : bool :=
  forallb (fun s => forallb (fun c => forallb (fun f => P s c f) all_faults) all_calls) all_states.

Lemma sweep_sound P : sweep P = true -> forall s c f, P s c f = true.
Proof.
  unfold sweep. intros H s c f.
  rewrite forallb_forall in H. specialize (H s (in_all_states s)).
  rewrite forallb_forall in H. specialize (H c (in_all_calls c)).
  rewrite forallb_forall in H. exact (H f (in_all_faults f)).
Qed.

(* the states between calls: READY / IN_TXN / ABORTABLE_ERROR / FATAL_ERROR; ABORTABLE carries its error
   (a topic / group authorization failure); un-awaited nowait sends exist only in IN_TXN *)
Definition no_werr (s : tstate) : bool := match werr s with None => true | Some _ => false end.
Definition no_nw (s : tstate) : bool := negb (nw0 s) && negb (nw1 s).
Definition wfb (s : tstate) : bool :=
  match st s with
  | READY => no_werr s && is_empty_txn s && no_nw s
  | IN_TXN => no_werr s
  | ABORTABLE => (match werr s with Some (XCode E29) | Some (XCode E30) => true | _ => false end) && no_nw s
  | FATAL => (match werr s with Some _ => true | None => false end) && is_empty_txn s && no_nw s
  | _ => false
  end.

(* lazy implication *)
Notation "a ==> b" := (if a then b else true) (at level 70, only parsing).

(* One traversal of the well-formed states checks a fact about each state, one about each call made
   in it and, unless [skip] says the call needs none, one about the call under each fault of the list
   [fl s]; [wfb] is tested once per state. *)
Definition wsweep (Ps : tstate -> bool) (Pc skip : tstate -> call -> bool) (fl : tstate -> list fault)
  (Pf : tstate -> call -> fault -> bool) : bool :=
  forallb (fun s => wfb s ==>
    (Ps s && forallb (fun c => Pc s c && (skip s c || forallb (Pf s c) (fl s))) all_calls)) all_states.
Lemma wsweep_sound Ps Pc skip fl Pf : wsweep Ps Pc skip fl Pf = true -> forall s, wfb s = true ->
  Ps s = true /\ forall c, Pc s c = true /\ forall f, skip s c = false -> In f (fl s) -> Pf s c f = true.
Proof.
  unfold wsweep. intros H s W.
  rewrite forallb_forall in H. specialize (H s (in_all_states s)). rewrite W in H.
  apply andb_prop in H. destruct H as [H1 H]. split; [exact H1|]. intros c.
  rewrite forallb_forall in H. specialize (H c (in_all_calls c)).
  apply andb_prop in H. destruct H as [H2 H]. split; [exact H2|]. intros f K I. rewrite K in H. cbn [orb] in H.
  rewrite forallb_forall in H. exact (H f I).
Qed.

Definition api_st (s : tstate) (c : call) (f : fault) : tstate := fst (fst (api s c f)).
Definition api_res (s : tstate) (c : call) (f : fault) : result := snd (fst (api s c f)).
Definition api_req (s : tstate) (c : call) (f : fault) : list req := snd (api s c f).
Lemma api_split s c f : api s c f = (api_st s c f, api_res s c f, api_req s c f).
Proof. unfold api_st, api_res, api_req. destruct (api s c f) as [[a b] d]. reflexivity. Qed.

(* An obligation on one call: a test of the state, the call, the fault and the four components of
   the outcome [api_full s c f] (state after, result, requests, awaited futures). *)
Definition fact := tstate -> call -> fault -> tstate -> result -> list req -> futs -> bool.

Definition wf_after : fact := fun _ _ _ s' _ _ _ => wfb s'.

(* the call takes the producer into state X *)
Definition enters (X : tst) (s s' : tstate) : bool := tst_eqb (st s') X && negb (tst_eqb (st s) X).
Lemma enters_true X s s' : st s <> X -> st s' = X -> enters X s s' = true.
Proof.
  intros N E. unfold enters. rewrite E, tst_eqb_eq.
  destruct (st s), X; (reflexivity || congruence).
Qed.


(* a call that first awaits the outstanding nowait sends *)
Definition awaits_first (s : tstate) (c : call) : bool := pending s && negb (is_end c) && negb (is_nw c).

Definition is_order_error (r : result) : bool :=
  match r with RRaise XIllegalOperation | RRaise XAssertion => true | _ => false end.
(* an allowed call never fails with the out-of-order errors (a call that first awaits outstanding
   sends is made in the state they leave behind, see [refines_step_b]) *)
Definition legal_b : fact := fun s c _ _ r _ _ =>
  (pallowed (abs (st s)) c && negb (awaits_first s c)) ==> negb (is_order_error r).

(* a call made with nothing outstanding, an end call, or a nowait send *)
Definition refines_direct_b : fact := fun s c _ s' r rq _ =>
  let q := abs (st s) in
  if pallowed q c then
    existsb (fun pk => match prun q (fst pk) with
                       | Some q' => pstate_eqb q' (abs (st s')) && result_fits c (snd pk) r
                       | None => false
                       end) (call_paths q c)
  else true.   (* what a refused call does is [refused] *)

(* awaiting the outstanding nowait sends: the state they leave, the requests it took, and the fault as
   the call made afterwards sees it *)
Definition awaited (s : tstate) (f : fault) : tstate := fl_s (await_sends s f 0).
Definition awaited_n (s : tstate) (f : fault) : nat := fl_n (await_sends s f 0).
Definition fshift (f : fault) (k : nat) : fault :=
  match f with
  | Some (j, fk) =>
      if Nat.ltb (idx_nat j) k then None
      else match Nat.sub (idx_nat j) k with
           | O => Some (I0, fk) | 1%nat => Some (I1, fk) | 2%nat => Some (I2, fk) | _ => Some (I3, fk)
           end
  | None => None
  end.

(* a call that first awaits the outstanding sends: what the table checks is the state they leave
   behind; that the call then behaves as a direct call under the shifted fault is [awaited_call] *)
Definition refines_step_b : fact := fun s c f s' r rq fu =>
  if awaits_first s c then
    let s1 := awaited s f in
    wfb s1 && negb (pending s1)
    && (pstate_eqb (abs (st s1)) PInTxn || pstate_eqb (abs (st s1)) PAbortableError
        || pstate_eqb (abs (st s1)) PFatalError)
  else refines_direct_b s c f s' r rq fu.

(* does anything stay outstanding after the call *)
Definition next_o (o : bool) (q : pstate) (c : call) : bool :=
  if is_nw c then o || pallowed q c else false.
Definition pending_next_b : fact := fun s c _ s' _ _ _ =>
  Bool.eqb (pending s') (next_o (pending s) (abs (st s)) c).

(* faults that every handler answers by re-sending: connection drops and the coordinator-moved /
   loading codes *)
Definition benign (f : fault) : bool :=
  match f with
  | None => true
  | Some (_, FDropBefore) | Some (_, FDropAfter) => true
  | Some (_, FErr c) => match c with E14 | E15 | E16 => true | _ => false end
  end.

Definition dfa_next (inside : bool) (c : call) : option bool :=
  match c, inside with
  | Begin, false => Some true
  | Send _, true | SendOffsets, true | SendNW _, true => Some true
  | Commit, true | Abort, true | CtxOk, true | CtxExc, true => Some false
  | _, _ => None
  end.

(* READY / IN_TRANSACTION with no sequence gap at a partition leader *)
Definition inside_of (s : tstate) : option bool :=
  if gap0 s || gap1 s then None
  else match st s with READY => Some false | IN_TXN => Some true | _ => None end.

(* no awaited nowait future failed *)
Definition fut_ok (o : option result) : bool := match o with Some r => negb (is_error r) | None => true end.
Definition futs_ok (fu : futs) : bool := fut_ok (fst fu) && fut_ok (snd fu).

Definition lang_step_b : fact := fun s c f s' r _ fu =>
  match inside_of s with
  | Some i =>
      benign f ==>
        (match dfa_next i c with
         | Some i' => result_eqb r ROk && futs_ok fu
                      && eqb_of (fun a b : option bool => ltac:(decide equality; apply bool_dec) : {a = b} + {a <> b})
                           (inside_of s') (Some i')
         | None => is_error r
         end)
  | None => true
  end.

(* observation of a run: the calls with "did it return normally" *)
Definition accepted (r : result) : bool := negb (is_error r).
Definition all_accepted (o : list (result * list req)) : bool :=
  forallb (fun x => accepted (fst x)) o.

Definition healthy_txn : list (call * fault) := [(Begin, None); (Send P0, None); (Commit, None)].
Definition healthy_txn1 : list (call * fault) := [(Begin, None); (Send P1, None); (Commit, None)].

(* entering ABORTABLE_ERROR: the stored error is the topic / group authorization failure; abort
   succeeds and leads to READY, and a new transaction then goes through *)
Definition abortable_b : fact := fun s _ _ s1 _ _ _ =>
  enters ABORTABLE s s1 ==>
    (match werr s1 with
     | Some e =>
         (eqb_of exn_eq_dec e (XCode E29) || eqb_of exn_eq_dec e (XCode E30))
         && result_eqb (api_res s1 Abort None) ROk && tst_eqb (st (api_st s1 Abort None)) READY
         && result_eqb (api_res s1 CtxExc None) ROk && tst_eqb (st (api_st s1 CtxExc None)) READY
         && (gap0 s || all_accepted (fst (run (api_st s1 Abort None) healthy_txn)))
         && (gap1 s || all_accepted (fst (run (api_st s1 Abort None) healthy_txn1)))
         && tst_eqb (st (snd (run (api_st s1 Abort None) healthy_txn))) READY
     | None => false
     end).

(* the abortable state is entered exactly by the authorization failures on the requests that
   register a partition / a group / commit offsets *)
Definition abortable_cause_b : fact := fun s c f s' _ _ _ =>
  enters ABORTABLE s s' ==>
    (match f with
     | Some (_, FErr E29) => pending s || match c with Send _ => true | _ => false end
     | Some (_, FErr E30) => match c with SendOffsets => true | _ => false end
     | _ => false
     end).

(* entering ABORTABLE_ERROR keeps the registered partitions and group *)
Definition abortable_keeps_b : fact := fun s _ _ s' r _ _ =>
  enters ABORTABLE s s' ==>
  (implb (p0 s) (p0 s') && implb (p1 s) (p1 s') && implb (grp s) (grp s') && is_error r
   && (negb (pending s) ==> (Bool.eqb (p0 s') (p0 s) && Bool.eqb (p1 s') (p1 s)))).

(* abort after an abortable error ends the transaction at the coordinator whenever anything had
   been registered there (partitions or the consumer group) *)
Definition abort_sends_endtxn_b (s : tstate) : bool :=
  tst_eqb (st s) ABORTABLE ==>
  reqs_eqb (api_req s Abort None) (if is_empty_txn s then [] else [REndTxn false])
  && reqs_eqb (api_req s CtxExc None) (if is_empty_txn s then [] else [REndTxn false]).

(* an abortable error that arrives while the transaction is being ended: nowait sends to a partition the
   transaction does not have yet ([unregistered]), then commit / abort / context exit at once, and the
   AddPartitionsToTxn sent while COMMITTING / ABORTING is refused (c16_abortable_while_ending in props/C16.v) *)
Definition unregistered (s : tstate) : pset := (nw0 s && negb (p0 s), nw1 s && negb (p1 s)).
Definition registered_nw (s : tstate) : pset := (nw0 s && p0 s, nw1 s && p1 s).
Definition fut_failed_for (B : pset) (e : exn) (fu : futs) : bool :=
  (fst B ==> eqb_of ores_eq_dec (fst fu) (Some (RFutFail e)))
  && (snd B ==> eqb_of ores_eq_dec (snd fu) (Some (RFutFail e))).
Definition ending_error_b (s : tstate) (c : call) : bool :=
  (tst_eqb (st s) IN_TXN && is_end c && negb (is_none (unregistered s))) ==>
    (let f29 := Some (I0, FErr E29) in
     tst_eqb (st (api_st s c f29)) ABORTABLE
     && result_eqb (api_res s c f29) (RRaise (XCode E29))
     && werr_eqb (werr (api_st s c f29)) (Some (XCode E29))
     && reqs_eqb (api_req s c f29)
          (RAddPartitions (unregistered s)
           :: (if is_none (registered_nw s) then [] else [RProduce (registered_nw s)]))
     && fut_failed_for (unregistered s) (XCode E29) (api_futs s c f29)
     && Bool.eqb (p0 (api_st s c f29)) (p0 s) && Bool.eqb (p1 (api_st s c f29)) (p1 s)
     && Bool.eqb (grp (api_st s c f29)) (grp s)).

Definition exn_of (r : result) : option exn :=
  match r with ROk => None | RRaise e | RFutFail e => Some e end.
Definition ofut_exn (o : option result) : option exn := match o with Some r => exn_of r | None => None end.
(* one of the awaited nowait futures failed with this error *)
Definition fut_is (w : option exn) (fu : futs) : bool :=
  match w with
  | Some _ => werr_eqb w (ofut_exn (fst fu)) || werr_eqb w (ofut_exn (snd fu))
  | None => false
  end.
(* entering FATAL: the call in which it happens fails with the error that is stored; in particular
   the pending send (the one being awaited) fails *)
Definition fatal_entry_b : fact := fun s c _ s' r _ fu =>
  enters FATAL s s' ==>
    (is_error r
     && (werr_eqb (werr s') (exn_of r) || (awaits_first s c && fut_is (werr s') fu))
     && is_empty_txn s').

(* a fencing / txn-id authorization / sequence error delivered to a coordinator request during an
   allowed call always ends in FATAL *)
Definition fatal_code (c : code) : bool := match c with E45 | E47 | E53 => true | _ => false end.
Definition fatal_exn (e : exn) : bool :=
  match e with XProducerFenced | XCode E45 | XCode E53 => true | _ => false end.
Definition fatal_class_result (r : result) : bool :=
  match exn_of r with Some e => fatal_exn e | None => false end.
(* if an awaited API call (not a send future) raises a fatal-class exception, the state is FATAL *)
Definition fatal_raise_b : fact := fun _ _ _ s' r _ _ =>
  match r with RRaise e => fatal_exn e | _ => false end ==> tst_eqb (st s') FATAL.

Definition coord_kind (k : rkind) : bool := match k with KProduce => false | _ => true end.
(* IN_TRANSACTION with nothing registered: where the witness against the full fatal clause starts (props/C16.v) *)
Definition in_txn_p0 : tstate := mkT IN_TXN false false false false None false false false false.

(* ---------- calls the protocol does not allow --------------------------------------------------- *)
Definition refused_b (s : tstate) (c : call) : bool := negb (pallowed (abs (st s)) c) && negb (pending s).

(* a call the protocol does not allow, made with nothing outstanding, is refused and changes nothing: it
   stops at a guard of the code (a state test, or a row of the transition table) before any request; the
   error is not of the fatal class (in ABORTABLE_ERROR commit raises the stored authorization failure) *)
Lemma refused s c f :
  wfb s = true -> refused_b s c = true ->
  exists e, fatal_exn e = false /\ api_full s c f = (s, RRaise e, [], no_futs).
Proof.
  destruct s as [t a b g k w g0 g1 n0 n1]. unfold refused_b, api_full, pending. cbn [st nw0 nw1 abs].
  destruct t, c as [ | [|] | | | | | | [|] ]; cbn; intros W R; try discriminate R;
    try (apply negb_true_iff in R; rewrite R); cbn; try (eexists; (split; [|reflexivity]); reflexivity).
  all: destruct w as [[| | | |[]]|]; try discriminate W; eexists; (split; [|reflexivity]); reflexivity.
Qed.
(* with sends outstanding every end call and every nowait send is allowed *)
Lemma refused_not_awaited s c :
  pallowed (abs (st s)) c = false -> awaits_first s c = false -> refused_b s c = true.
Proof.
  unfold awaits_first, refused_b, pending.
  destruct (st s), c as [ | [|] | | | | | | [|] ]; cbn; intros A B; try discriminate A; try reflexivity;
    destruct (nw0 s || nw1 s); (reflexivity || discriminate).
Qed.

(* without outstanding sends a call makes at most two faultable requests (AddPartitionsToTxn / AddOffsetsToTxn /
   EndTxn, then Produce / TxnOffsetCommit): a fault at position 2 or 3 is never met *)
Definition near (f : fault) : bool := match f with Some (I2, _) | Some (I3, _) => false | _ => true end.
Definition near_faults : list fault :=
  None :: flat_map (fun i => map (fun k => Some (i, k)) all_fkind) [I0; I1].
Definition faults_of (s : tstate) : list fault := if nw0 s || nw1 s then all_faults else near_faults.
Lemma in_faults_of s f : nw0 s || nw1 s = true \/ near f = true -> In f (faults_of s).
Proof.
  unfold faults_of. intros [-> | N]; [apply in_all_faults|]. destruct (nw0 s || nw1 s); [apply in_all_faults|].
  destruct f as [[i k]|]; [right | left; reflexivity].
  apply in_flat_map. exists i. split; [destruct i; try discriminate N; simpl; tauto|].
  apply (in_map (fun k0 => Some (i, k0))). apply in_all_fkind.
Qed.
Lemma act_at_far k f n : near f = false -> (n < 2)%nat -> act_at k f n = ASuccess.
Proof. destruct f as [[[] fk]|]; try discriminate; destruct n as [|[|n]]; intros _ L; try reflexivity; lia. Qed.
Lemma far_fault s c f : nw0 s || nw1 s = false -> near f = false -> api_full s c f = api_full s c None.
Proof.
  intros N F. apply orb_false_elim in N. destruct N as [N0 N1].
  assert (A : forall k n, (n < 2)%nat -> act_at k f n = act_at k None n) by (intros; apply act_at_far; assumption).
  assert (P : pending s = false) by (unfold pending; rewrite N0, N1; destruct (st s); reflexivity).
  (* call by call, so that each rewrite works on the code of one call only *)
  destruct c; unfold api_full, api_commit, api_abort, end_txn; rewrite ?P, ?N0, ?N1; cbn [orb andb is_nw negb];
    try reflexivity; cbv iota;
    unfold end_flushed, api_plain, api_send, api_send_offsets, do_produce, do_txn_offset_commit;
    rewrite ?(A _ 0%nat), ?(A _ 1%nat) by lia; reflexivity.
Qed.

Definition call_facts : list fact :=
  [wf_after; legal_b; refines_step_b; pending_next_b; lang_step_b;
   abortable_b; abortable_cause_b; abortable_keeps_b; fatal_entry_b; fatal_raise_b].

Definition call_ok_b (s : tstate) (c : call) (f : fault) : bool :=
  let '(s', r, rq, fu) := api_full s c f in forallb (fun P : fact => P s c f s' r rq fu) call_facts.

Lemma enters_self X s : enters X s s = false.
Proof. unfold enters. destruct (tst_eqb (st s) X); reflexivity. Qed.
Lemma refused_out_of_order s c i : refused_b s c = true -> inside_of s = Some i -> dfa_next i c = None.
Proof.
  unfold refused_b, inside_of. destruct (gap0 s || gap1 s); [discriminate|].
  destruct (st s), c as [ | [|] | | | | | | [|] ]; cbn; intros R [= <-]; (reflexivity || discriminate R).
Qed.
(* a refused call returns the state it was made in and an ordinary error, so it passes every obligation;
   the table does not enumerate the faults of refused calls *)
Lemma refused_ok s c f : wfb s = true -> refused_b s c = true -> call_ok_b s c f = true.
Proof.
  intros W R. destruct (refused s c f W R) as (e & Fe & E). unfold call_ok_b. rewrite E.
  pose proof (fun i => refused_out_of_order s c i R) as D.
  unfold refused_b in R. apply andb_prop in R. destruct R as [A NP]. apply negb_true_iff in A, NP.
  cbn [forallb call_facts].
  unfold wf_after, legal_b, refines_step_b, refines_direct_b, awaits_first, pending_next_b, next_o,
    lang_step_b, abortable_b, abortable_cause_b, abortable_keeps_b, fatal_entry_b, fatal_raise_b.
  rewrite W, A, NP, !enters_self, Fe. cbn [andb negb orb].
  destruct (inside_of s) as [i|]; [rewrite (D i eq_refl)|];
    destruct (is_nw c), (benign f); reflexivity.
Qed.

(* under a fault that is never met a call does what it does without fault; an obligation looks at the fault
   itself only to be weaker under it ([lang_step_b]) or where an error was entered ([abortable_cause_b]) *)
Lemma call_ok_far s c f : nw0 s || nw1 s = false -> near f = false ->
  call_ok_b s c None = true -> call_ok_b s c f = true.
Proof.
  intros N F. unfold call_ok_b. rewrite (far_fault s c f N F).
  assert (AF : awaits_first s c = false).
  { unfold awaits_first, pending. apply orb_false_elim in N. destruct N as [-> ->]. destruct (st s); reflexivity. }
  destruct (api_full s c None) as [[[s' r] rq] fu]. rewrite !forallb_forall. intros H P I. specialize (H P I).
  revert H. cbn [In call_facts] in I. repeat (destruct I as [<- | I]); try contradiction; try exact (fun H => H).
  - unfold refines_step_b. rewrite AF. exact (fun H => H).
  - unfold lang_step_b. destruct (inside_of s); [|reflexivity]. cbn [benign]. destruct (benign f); [exact (fun H => H) | reflexivity].
  - unfold abortable_cause_b. destruct (enters ABORTABLE s s'); [discriminate | reflexivity].
Qed.

Lemma api_facts : wsweep abort_sends_endtxn_b ending_error_b refused_b faults_of call_ok_b = true.
Proof. vm_compute. reflexivity. Qed.

Lemma call_fact P s c f : wfb s = true -> In P call_facts ->
  P s c f (api_st s c f) (api_res s c f) (api_req s c f) (api_futs s c f) = true.
Proof.
  intros W I. destruct (wsweep_sound _ _ _ _ _ api_facts s W) as [_ H]. destruct (H c) as [_ K].
  assert (K' : call_ok_b s c f = true).
  { destruct (refused_b s c) eqn:R; [apply refused_ok; auto|].
    destruct (nw0 s || nw1 s) eqn:N; [apply K, in_faults_of; auto|].
    destruct (near f) eqn:F; [apply K, in_faults_of; auto | apply call_ok_far, K, in_faults_of; auto]. }
  clear K. rename K' into K. unfold call_ok_b in K. unfold api_st, api_res, api_req, api, api_futs.
  destruct (api_full s c f) as [[[s' r] rq] fu]. rewrite forallb_forall in K. exact (K P I).
Qed.

Lemma wf_preserved s c f : wfb s = true -> wfb (api_st s c f) = true.
Proof. intros W. exact (call_fact wf_after s c f W ltac:(cbn; tauto)). Qed.

Lemma pending_next s c f :
  wfb s = true -> pending (api_st s c f) = next_o (pending s) (abs (st s)) c.
Proof. intros W. apply eqb_prop. exact (call_fact pending_next_b s c f W ltac:(cbn; tauto)). Qed.

(* runs of the specification: every allowed call follows one of its documented event paths of the
   7-state automaton and its result fits the path; a call the protocol does not allow changes
   nothing and is refused.  The flag says whether nowait sends are outstanding: when the application
   awaits them before a call that does not end the transaction, their abortable / fatal error may
   surface first ([sr_async]). *)
Inductive spec_run : pstate -> bool -> list (call * result) -> pstate -> Prop :=
| sr_nil q o : spec_run q o [] q
| sr_legal q o c r path k q' rest q'' :
    pallowed q c = true -> In (path, k) (call_paths q c) -> prun q path = Some q' ->
    result_fits c k r = true -> spec_run q' (next_o o q c) rest q'' -> spec_run q o ((c, r) :: rest) q''
| sr_illegal q o c e rest q'' :
    pallowed q c = false -> spec_run q (next_o o q c) rest q'' -> spec_run q o ((c, RRaise e) :: rest) q''
| sr_async c r rest q1 q'' :
    is_end c = false -> is_nw c = false ->
    (pstep PInTxn PAbortableErr = Some q1 \/ pstep PInTxn PFatalErr = Some q1) ->
    spec_run q1 false ((c, r) :: rest) q'' -> spec_run PInTxn true ((c, r) :: rest) q''.

Definition observe (s : tstate) (cs : list (call * fault)) : list (call * result) :=
  combine (map fst cs) (map fst (fst (run s cs))).

Lemma run_cons s c f rest :
  run s ((c, f) :: rest) =
  ((api_res s c f, api_req s c f) :: fst (run (api_st s c f) rest), snd (run (api_st s c f) rest)).
Proof.
  simpl. rewrite (api_split s c f). destruct (run (api_st s c f) rest) as [o sf]. reflexivity.
Qed.

Lemma observe_cons s c f rest :
  observe s ((c, f) :: rest) = (c, api_res s c f) :: observe (api_st s c f) rest.
Proof. unfold observe. rewrite run_cons. reflexivity. Qed.

Lemma spec_run_flag q c r rest q'' :
  is_nw c = false -> spec_run q false ((c, r) :: rest) q'' -> spec_run q true ((c, r) :: rest) q''.
Proof.
  intros N H. inversion H; subst.
  - eapply sr_legal; eauto. unfold next_o in *. rewrite N in *. assumption.
  - eapply sr_illegal; eauto. unfold next_o in *. rewrite N in *. assumption.
Qed.

Lemma pending_in_txn s : pending s = true -> st s = IN_TXN.
Proof. unfold pending. destruct (st s); try discriminate; reflexivity. Qed.

Lemma step_direct s c f obs qf :
  wfb s = true -> awaits_first s c = false ->
  spec_run (abs (st (api_st s c f))) (pending (api_st s c f)) obs qf ->
  spec_run (abs (st s)) (pending s) ((c, api_res s c f) :: obs) qf.
Proof.
  intros W AF R.
  pose proof (call_fact refines_step_b s c f W ltac:(cbn; tauto)) as P.
  unfold refines_step_b in P. rewrite AF in P. unfold refines_direct_b in P.
  rewrite (pending_next s c f W) in R.
  destruct (pallowed (abs (st s)) c) eqn:A.
  - apply existsb_exists in P. destruct P as [[path k] [Hin Hp]]. simpl in Hp.
    destruct (prun (abs (st s)) path) as [q'|] eqn:RR; [|discriminate].
    apply andb_prop in Hp. destruct Hp as [Hq Hr]. apply pstate_eqb_true in Hq. subst q'.
    eapply sr_legal; eauto.
  - destruct (refused s c f W (refused_not_awaited s c A AF)) as (e & _ & E).
    unfold api_st, api_res, api in *. rewrite E in *. apply sr_illegal; assumption.
Qed.

(* fault positions count from the first request of the call: a call made after b requests sees the
   fault shifted by b *)
Lemma act_at_shift k f b n : act_at k (fshift f b) n = act_at k f (b + n).
Proof.
  destruct f as [[j fk]|]; [|reflexivity]. unfold fshift.
  destruct (Nat.ltb_spec (idx_nat j) b) as [L|L]; unfold act_at.
  - destruct (Nat.eqb_spec (idx_nat j) (b + n)); [lia | reflexivity].
  - replace (Nat.eqb (idx_nat j) (b + n)) with (Nat.eqb (idx_nat j - b) n)
      by (destruct (Nat.eqb_spec (idx_nat j - b) n), (Nat.eqb_spec (idx_nat j) (b + n)); lia || reflexivity).
    destruct j, b as [|[|[|[|b]]]]; try (cbn in L; lia); reflexivity.
Qed.

Lemma api_plain_shift s c f b : api_plain s c (fshift f b) 0 = api_plain s c f b.
Proof.
  destruct c; try reflexivity; cbn [api_plain];
    unfold api_send, api_send_offsets, do_produce, do_txn_offset_commit;
    rewrite !act_at_shift, ?Nat.add_0_r, ?Nat.add_1_r; reflexivity.
Qed.

Lemma awaited_call s c f :
  awaits_first s c = true -> pending (awaited s f) = false ->
  api_st s c f = api_st (awaited s f) c (fshift f (awaited_n s f)) /\
  api_res s c f = api_res (awaited s f) c (fshift f (awaited_n s f)).
Proof.
  unfold awaits_first, api_st, api_res, api, api_full, awaited, awaited_n. intros AF NP.
  apply andb_prop in AF. destruct AF as [AF NW]. apply andb_prop in AF. destruct AF as [PD NE].
  destruct c; try discriminate; rewrite PD, NP; cbn [is_nw negb andb]; rewrite api_plain_shift;
    destruct (api_plain _ _ f _) as [[? ?] ?]; split; reflexivity.
Qed.

Lemma refines_spec : forall cs s,
  wfb s = true ->
  spec_run (abs (st s)) (pending s) (observe s cs) (abs (st (snd (run s cs)))) /\ wfb (snd (run s cs)) = true.
Proof.
  induction cs as [|[c f] rest IH]; intros s W.
  - simpl. split; [constructor | exact W].
  - rewrite observe_cons, run_cons. simpl snd.
    pose proof (wf_preserved s c f W) as W'.
    destruct (IH _ W') as [IH1 IH2]. split; [| exact IH2].
    destruct (awaits_first s c) eqn:AF.
    + pose proof (call_fact refines_step_b s c f W ltac:(cbn; tauto)) as P.
      unfold refines_step_b in P. rewrite AF in P. cbv zeta in P.
      set (s1 := awaited s f) in *. set (f1 := fshift f (awaited_n s f)) in *.
      apply andb_prop in P. destruct P as [P Q]. apply andb_prop in P. destruct P as [W1 NP].
      apply negb_true_iff in NP. destruct (awaited_call s c f AF NP) as [ES ER]. fold s1 f1 in ES, ER.
      unfold awaits_first in AF. apply andb_prop in AF. destruct AF as [AF NW].
      apply andb_prop in AF. destruct AF as [PD NE].
      apply negb_true_iff in NW. apply negb_true_iff in NE.
      rewrite PD. rewrite (pending_in_txn s PD). simpl abs.
      rewrite ES, ER in *.
      assert (AF1 : awaits_first s1 c = false) by (unfold awaits_first; rewrite NP; reflexivity).
      pose proof (step_direct s1 c f1 _ _ W1 AF1 IH1) as D. rewrite NP in D.
      apply orb_prop in Q. destruct Q as [Q|Q]; [apply orb_prop in Q; destruct Q as [Q|Q]|];
        apply pstate_eqb_true in Q; rewrite Q in D.
      * apply spec_run_flag; assumption.
      * apply sr_async with (q1 := PAbortableError); [exact NE | exact NW | left; reflexivity | exact D].
      * apply sr_async with (q1 := PFatalError); [exact NE | exact NW | right; reflexivity | exact D].
    + apply step_direct; assumption.
Qed.

Lemma in_protocol_order_step i c rest :
  in_protocol_order i (c :: rest) =
  match dfa_next i c with Some i' => in_protocol_order i' rest | None => false end.
Proof. destruct c as [ | ? | | | | | | ? ], i; reflexivity. Qed.

Lemma accepts_protocol_order_gen : forall cs s i,
  wfb s = true -> inside_of s = Some i ->
  forallb (fun cf => benign (snd cf)) cs = true ->
  all_accepted (fst (run s cs)) = in_protocol_order i (map fst cs).
Proof.
  induction cs as [|[c f] rest IH]; intros s i W I B.
  - reflexivity.
  - simpl in B. apply andb_prop in B. destruct B as [Bf Br].
    rewrite run_cons. simpl map. rewrite in_protocol_order_step.
    unfold all_accepted. simpl forallb. fold (all_accepted (fst (run (api_st s c f) rest))).
    pose proof (call_fact lang_step_b s c f W ltac:(cbn; tauto)) as P. unfold lang_step_b in P.
    rewrite I, Bf in P.
    destruct (dfa_next i c) as [i'|].
    + apply andb_prop in P. destruct P as [P1 P2]. apply andb_prop in P1. destruct P1 as [P1 _].
      apply eqb_of_true in P1. apply eqb_of_true in P2. rewrite P1. simpl.
      apply IH; auto. apply wf_preserved; assumption.
    + unfold accepted. rewrite P. reflexivity.
Qed.

(* in ABORTABLE_ERROR commit (and a clean context exit) raise exactly the stored error and nothing is sent,
   whatever fault is pending: api_commit returns before any transition *)
Lemma abortable_commit_raises s1 c f' :
  wfb s1 = true -> st s1 = ABORTABLE -> c = Commit \/ c = CtxOk ->
  exists e, werr s1 = Some e /\ api s1 c f' = (s1, RRaise e, []).
Proof.
  destruct s1 as [t a b g k w g0 g1 n0 n1]. cbn [st werr]. intros W -> C.
  destruct w as [e|]; [|discriminate W]. exists e. split; [reflexivity|]. destruct C as [->| ->]; reflexivity.
Qed.

Lemma fatal_absorbing_step s c f :
  st s = FATAL ->
  api_st s c f = s /\ api_req s c f = [] /\ (is_error (api_res s c f) = true \/ c = CtxExc).
Proof.
  (* in FATAL no call reads the other nine fields, so the evaluation goes through with them free *)
  destruct s as [t a b g k w g0 g1 n0 n1]. simpl. intros F. subst t.
  destruct c as [ | [|] | | | | | | [|] ]; vm_compute; repeat split; auto.
Qed.

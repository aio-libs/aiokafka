(* C14 — list lemmas shared by the assignor proofs. *)
From Coq Require Import Arith List Bool Lia PeanoNat Permutation FinFun.
From Verif Require Export ListFacts.
From Verif Require Import C14_Assignors.
Import ListNotations.

Lemma NoDup_flat_map : forall (A B : Type) (f : A -> list B) (l : list A),
  NoDup l ->
  (forall a, In a l -> NoDup (f a)) ->
  (forall a b x, In a l -> In b l -> a <> b -> In x (f a) -> In x (f b) -> False) ->
  NoDup (flat_map f l).
Proof.
  induction l as [|a l IH]; simpl; intros Hn Hf Hd; [constructor|].
  inversion Hn; subst.
  apply NoDup_app_intro.
  - apply Hf; auto.
  - apply IH; auto. intros; eapply (Hd a0 b); eauto.
  - intros x Hx Hy. apply in_flat_map in Hy. destruct Hy as [b [Hb Hxb]].
    eapply (Hd a b); eauto. intros ->. auto.
Qed.

Lemma NoDup_filter : forall (A : Type) (f : A -> bool) (l : list A), NoDup l -> NoDup (filter f l).
Proof. intros A f l. apply List.NoDup_filter. Qed.

Lemma NoDup_map_filter : forall (A B : Type) (f : A -> B) (g : A -> bool) (l : list A),
  NoDup (map f l) -> NoDup (map f (filter g l)).
Proof.
  induction l as [|a l IH]; simpl; intros H; [constructor|].
  inversion H; subst. destruct (g a); simpl; auto.
  constructor; auto. rewrite in_map_iff in *. intros [y [E Hy]]. apply H2.
  exists y. split; auto. apply filter_In in Hy. tauto.
Qed.

Lemma NoDup_map_eq : forall (A B : Type) (f : A -> B) (l : list A) a b,
  NoDup (map f l) -> In a l -> In b l -> f a = f b -> a = b.
Proof.
  induction l as [|x l IH]; simpl; intros a b Hn Ha Hb E; [tauto|].
  inversion Hn; subst.
  destruct Ha as [->|Ha], Hb as [->|Hb]; auto.
  - exfalso. apply H1. rewrite E. apply in_map; auto.
  - exfalso. apply H1. rewrite <- E. apply in_map; auto.
Qed.

Lemma existsb_false_In : forall (A : Type) (f : A -> bool) (l : list A) x,
  existsb f l = false -> In x l -> f x = false.
Proof.
  intros A f l x H Hx. destruct (f x) eqn:E; auto.
  rewrite <- H. symmetry. apply existsb_exists. eauto.
Qed.

Lemma flat_map_nil : forall (A B : Type) (f : A -> list B) (l : list A),
  (forall a, In a l -> f a = []) -> flat_map f l = [].
Proof.
  induction l as [|a l IH]; simpl; intros H; auto.
  rewrite (H a), IH by auto. reflexivity.
Qed.

(* only one summand is non-empty *)
Lemma flat_map_single : forall (A B : Type) (f : A -> list B) (l : list A) a,
  NoDup l -> In a l -> (forall b, In b l -> b <> a -> f b = []) -> flat_map f l = f a.
Proof.
  intros A B f l a Hn Hin Hf. apply in_split in Hin. destruct Hin as [l1 [l2 ->]].
  apply NoDup_remove_2 in Hn. rewrite in_app_iff in Hn.
  rewrite flat_map_app. simpl.
  rewrite !flat_map_nil, app_nil_r; auto.
  - intros b Hb. apply Hf; [apply in_app_iff; simpl; auto | intros ->; tauto].
  - intros b Hb. apply Hf; [apply in_app_iff; auto | intros ->; tauto].
Qed.

Lemma map_flat_map : forall (A B C : Type) (g : B -> C) (f : A -> list B) (l : list A),
  map g (flat_map f l) = flat_map (fun a => map g (f a)) l.
Proof.
  induction l as [|a l IH]; simpl; auto. rewrite map_app, IH. reflexivity.
Qed.

Lemma firstn_skipn_seq : forall n s l, s + l <= n -> firstn l (skipn s (seq 0 n)) = seq s l.
Proof.
  intros n s l H.
  replace n with (s + (l + (n - s - l))) by lia.
  rewrite seq_app, skipn_app, seq_length, Nat.sub_diag. simpl.
  rewrite skipn_all2 by (rewrite seq_length; lia). simpl.
  rewrite seq_app, firstn_app, seq_length, Nat.sub_diag. simpl.
  rewrite firstn_all2 by (rewrite seq_length; lia).
  rewrite app_nil_r. reflexivity.
Qed.

Lemma insert_perm : forall x l, Permutation (insert x l) (x :: l).
Proof.
  induction l as [|y r IH]; simpl; auto.
  destruct (x <=? y); auto.
  eapply perm_trans; [apply perm_skip, IH | apply perm_swap].
Qed.

Lemma sort_perm : forall l, Permutation (sort l) l.
Proof.
  induction l as [|x r IH]; simpl; auto.
  eapply perm_trans; [apply insert_perm | apply perm_skip, IH].
Qed.

Lemma sort_In : forall x l, In x (sort l) <-> In x l.
Proof.
  intros; split; apply Permutation_in; [apply sort_perm | apply Permutation_sym, sort_perm].
Qed.

Lemma sort_NoDup : forall l, NoDup l -> NoDup (sort l).
Proof. intros l H. eapply Permutation_NoDup; [apply Permutation_sym, sort_perm | exact H]. Qed.

Lemma mem_nat_In : forall x l, mem_nat x l = true <-> In x l.
Proof.
  intros. unfold mem_nat. rewrite existsb_exists. split.
  - intros [y [Hy He]]. apply Nat.eqb_eq in He. subst; auto.
  - intros H. exists x. split; auto. apply Nat.eqb_refl.
Qed.

(* all members' ids distinct (dict keys) *)
Definition ids_nodup (ms : members_t) : Prop := NoDup (map fst ms).
(* each subscription lists a topic at most once *)
Definition subs_nodup (ms : members_t) : Prop := forall m s, In (m, s) ms -> NoDup s.

Lemma subs_of_In : forall ms m s, ids_nodup ms -> In (m, s) ms -> subs_of ms m = s.
Proof.
  induction ms as [|[m' s'] r IH]; simpl; intros m s Hn Hin; [tauto|].
  inversion Hn; subst.
  destruct Hin as [E|Hin].
  - inversion E; subst. rewrite Nat.eqb_refl. reflexivity.
  - destruct (Nat.eqb_spec m m') as [->|Hne].
    + exfalso. apply H1. apply (in_map fst _ _ Hin).
    + apply IH; auto.
Qed.

Lemma subs_of_subscribed : forall ms m t, In t (subs_of ms m) -> subscribed ms m t.
Proof.
  induction ms as [|[m' s'] r IH]; simpl; intros m t H; [tauto|].
  destruct (Nat.eqb_spec m m') as [->|Hne].
  - exists s'. simpl; auto.
  - destruct (IH _ _ H) as [s [Hs Ht]]. exists s. simpl; auto.
Qed.

Lemma subscribed_subs_of : forall ms m t, ids_nodup ms -> subscribed ms m t -> In t (subs_of ms m).
Proof. intros ms m t Hn [s [Hs Ht]]. rewrite (subs_of_In ms m s); auto. Qed.

Lemma subscribed_member : forall ms m t, subscribed ms m t -> In m (map fst ms).
Proof. intros ms m t [s [Hin _]]. apply (in_map fst _ _ Hin). Qed.

Lemma all_topics_In : forall ms t, In t (all_topics ms) <-> exists m, subscribed ms m t.
Proof.
  intros. unfold all_topics. rewrite sort_In, nodup_In, in_flat_map. split.
  - intros [[m s] [Hin Ht]]. exists m, s. auto.
  - intros [m [s [Hin Ht]]]. exists (m, s). auto.
Qed.

Lemma all_topics_NoDup : forall ms, NoDup (all_topics ms).
Proof. intros. apply sort_NoDup, NoDup_nodup. Qed.

Lemma in_triples_of : forall out m x,
  In (m, x) (triples_of out) <->
  exists a ps, In (m, a) out /\ In (fst x, ps) a /\ In (snd x) ps.
Proof.
  intros out m [t p]. unfold triples_of, triples_of_massign. simpl. rewrite in_flat_map. split.
  - intros [[m' a] [Hin H]]. apply in_flat_map in H. destruct H as [[t' ps] [Ha H]].
    apply in_map_iff in H. destruct H as [p' [E Hp]]. inversion E; subst.
    exists a, ps. auto.
  - intros [a [ps [Hin [Ha Hp]]]]. exists (m, a). split; auto.
    apply in_flat_map. exists (t, ps). split; auto. apply in_map_iff. exists p. auto.
Qed.

(* the partitions (t, p), for t in [ts] in order and p in the list [f t] *)
Definition tagged (f : topic -> option (list nat)) (ts : list topic) : list tp :=
  flat_map (fun t => match f t with None => [] | Some ps => map (pair t) ps end) ts.

Lemma tagged_In : forall f ts x,
  In x (tagged f ts) <-> In (fst x) ts /\ exists ps, f (fst x) = Some ps /\ In (snd x) ps.
Proof.
  intros f ts [t p]. unfold tagged. rewrite in_flat_map. simpl. split.
  - intros [t' [Ht H]]. destruct (f t') as [ps|] eqn:E; [|destruct H].
    apply in_map_iff in H. destruct H as [p' [Ep Hp]]. inversion Ep; subst. eauto.
  - intros [Ht [ps [E Hp]]]. exists t. rewrite E. split; auto. apply in_map. exact Hp.
Qed.

Lemma tagged_NoDup : forall f ts,
  NoDup ts -> (forall t ps, f t = Some ps -> NoDup ps) -> NoDup (tagged f ts).
Proof.
  intros f ts Hn Hf. apply NoDup_flat_map; auto.
  - intros t _. destruct (f t) as [ps|] eqn:E; [|constructor].
    apply Injective_map_NoDup; [|eauto]. intros p p' Ep. inversion Ep; auto.
  - intros t t' x _ _ Hne H1 H2.
    destruct (f t); [|destruct H1]. destruct (f t'); [|destruct H2].
    apply in_map_iff in H1, H2. destruct H1 as [p [<- _]], H2 as [p' [E _]]. congruence.
Qed.

(* the partitions of the topics [ts] that the cluster stub knows: [rr_partitions],
   [all_parts] and [potential_parts] are this list for three choices of [ts] *)
Definition parts_of (ppt : layout) (ts : list topic) : list tp :=
  flat_map (fun t => match lookup_parts ppt t with
                     | None => []
                     | Some n => map (pair t) (seq 0 n)
                     end) ts.

Lemma parts_of_tagged : forall ppt ts,
  parts_of ppt ts = tagged (fun t => option_map (seq 0) (lookup_parts ppt t)) ts.
Proof. intros. apply flat_map_ext. intros t. destruct (lookup_parts ppt t); reflexivity. Qed.

Lemma parts_of_In : forall ppt ts x,
  In x (parts_of ppt ts) <-> In (fst x) ts /\ has_partition ppt x.
Proof.
  intros. rewrite parts_of_tagged, tagged_In. unfold has_partition.
  destruct (lookup_parts ppt (fst x)) as [n|]; simpl; split; intros [Ht H]; split; auto.
  - destruct H as [ps [E Hp]]. inversion E; subst. apply in_seq in Hp. exists n. split; auto. lia.
  - destruct H as [n' [E Hp]]. inversion E; subst. exists (seq 0 n'). split; auto. apply in_seq. lia.
  - destruct H as [ps [E _]]. discriminate.
  - destruct H as [n' [E _]]. discriminate.
Qed.

Lemma parts_of_NoDup : forall ppt ts, NoDup ts -> NoDup (parts_of ppt ts).
Proof.
  intros ppt ts Hn. rewrite parts_of_tagged. apply tagged_NoDup; auto.
  intros t ps E. destruct (lookup_parts ppt t); inversion E. apply seq_NoDup.
Qed.

Lemma parts_of_length : forall ppt ts,
  length (parts_of ppt ts) =
  fold_right Nat.add 0 (map (fun t => match lookup_parts ppt t with Some n => n | None => 0 end) ts).
Proof.
  intros. unfold parts_of. induction ts as [|t ts IH]; simpl; auto.
  rewrite app_length, IH. f_equal. destruct (lookup_parts ppt t); simpl; auto.
  rewrite map_length. apply seq_length.
Qed.

Lemma lookup_parts_In : forall ppt t n, lookup_parts ppt t = Some n -> In t (map fst ppt).
Proof.
  induction ppt as [|[t' n'] r IH]; simpl; intros t n H; [discriminate|].
  destruct (Nat.eqb_spec t t'); eauto.
Qed.

(* assignments of "grid" shape:
   per member, per topic (in a fixed topic order), an optional entry (t, P m t).  Both range_assign
   and roundrobin_assign have this shape. *)
Definition grid_member (P : member -> topic -> option (list nat)) (topics : list topic) (m : member)
  : massign :=
  flat_map (fun t => match P m t with None => [] | Some ps => [(t, ps)] end) topics.
Definition grid_assign (P : member -> topic -> option (list nat)) (topics : list topic)
  (ms : members_t) : assignment :=
  map (fun e => (fst e, grid_member P topics (fst e))) ms.

(* what member m holds of topic t *)
Definition cell (P : member -> topic -> option (list nat)) (m : member) (t : topic) : triples :=
  match P m t with None => [] | Some ps => map (fun p => (m, (t, p))) ps end.

Lemma triples_of_grid : forall P topics ms,
  triples_of (grid_assign P topics ms) = flat_map (fun e => flat_map (cell P (fst e)) topics) ms.
Proof.
  intros. unfold triples_of, grid_assign.
  induction ms as [|e ms IH]; simpl; auto. rewrite IH. f_equal. clear IH.
  unfold triples_of_massign, grid_member.
  induction topics as [|t topics IHt]; simpl; auto.
  rewrite flat_map_app, IHt. f_equal. unfold cell.
  destruct (P (fst e) t); simpl; auto using app_nil_r.
Qed.

Lemma grid_parts : forall P topics ms,
  map snd (triples_of (grid_assign P topics ms)) = flat_map (fun e => tagged (P (fst e)) topics) ms.
Proof.
  intros. rewrite triples_of_grid, map_flat_map. apply flat_map_ext. intros e.
  rewrite map_flat_map. apply flat_map_ext. intros t. unfold cell.
  destruct (P (fst e) t); [apply map_map | reflexivity].
Qed.

Lemma grid_In : forall P topics ms m x,
  In (m, x) (triples_of (grid_assign P topics ms)) <->
  In m (map fst ms) /\ In (fst x) topics /\ exists ps, P m (fst x) = Some ps /\ In (snd x) ps.
Proof.
  intros P topics ms m [t p]. rewrite triples_of_grid, in_flat_map. simpl. split.
  - intros [e [He H]]. apply in_flat_map in H. destruct H as [t' [Ht H]]. unfold cell in H.
    destruct (P (fst e) t') as [ps|] eqn:E; [|destruct H].
    apply in_map_iff in H. destruct H as [p' [Ep Hp]]. inversion Ep; subst.
    split; [apply in_map; auto | eauto].
  - intros [Hm [Ht [ps [E Hp]]]]. apply in_map_iff in Hm. destruct Hm as [e [<- He]].
    exists e. split; auto. apply in_flat_map. exists t. split; auto.
    unfold cell. rewrite E. apply (in_map (fun p => (fst e, (t, p)))). exact Hp.
Qed.

Lemma grid_NoDup : forall P topics ms,
  NoDup (map fst ms) -> NoDup topics ->
  (forall m t ps, P m t = Some ps -> NoDup ps) ->
  (forall m m' t ps ps' p, m <> m' -> P m t = Some ps -> P m' t = Some ps' ->
                           In p ps -> In p ps' -> False) ->
  NoDup (map snd (triples_of (grid_assign P topics ms))).
Proof.
  intros P topics ms Hm Ht Hnd Hdis. rewrite grid_parts.
  apply NoDup_flat_map.
  - eapply NoDup_map_inv; eauto.
  - intros e _. apply tagged_NoDup; eauto.
  - intros a b x Ha Hb Hne H1 H2. apply tagged_In in H1, H2.
    destruct H1 as [_ [ps [E1 H1]]], H2 as [_ [ps' [E2 H2]]].
    apply (Hdis (fst a) (fst b) (fst x) ps ps' (snd x)); auto.
    intros E. apply Hne. eapply NoDup_map_eq; eauto.
Qed.

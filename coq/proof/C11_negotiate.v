(* C11_negotiate.v — proofs about the model of Request.prepare and the builders' guards. *)
From Coq Require Import ZArith List Bool Lia ZifyBool.
From Verif Require Import Wire KafkaSpec C11Negotiate.
Import ListNotations.
Open Scope Z_scope.

Lemma sorted_head_lt : forall l x, sorted_lt (x :: l) = true -> forall w, In w l -> x < w.
Proof.
  induction l as [|a l IH]; intros x H w Hw; [destruct Hw|].
  cbn [sorted_lt] in H. apply andb_prop in H as [Hxa Hs].
  destruct Hw as [<-|Hw]; [lia|].
  assert (a < w) by (apply IH; assumption). lia.
Qed.

Lemma sorted_tail x l : sorted_lt (x :: l) = true -> sorted_lt l = true.
Proof. destruct l; [reflexivity|]. cbn [sorted_lt]. intros H. apply andb_prop in H as [_ H]. exact H. Qed.

Lemma sorted_app_lt : forall a v b, sorted_lt (a ++ v :: b) = true -> forall w, In w a -> w < v.
Proof.
  induction a as [|x a IH]; intros v b H w Hw; [destruct Hw|].
  destruct Hw as [->|Hw].
  - apply (sorted_head_lt (a ++ v :: b) w H). apply in_or_app. right. left. reflexivity.
  - apply (IH v b); [|assumption]. exact (sorted_tail _ _ H).
Qed.

Lemma index_from_app l1 : forall n l2,
  index_from n (l1 ++ l2) = index_from n l1 ++ index_from (n + length l1) l2.
Proof.
  induction l1 as [|v l1 IH]; intros n l2; cbn [app index_from length].
  - rewrite Nat.add_0_r. reflexivity.
  - rewrite IH, Nat.add_succ_r. reflexivity.
Qed.

(* reversed(_CLASSES) looks at the last class first *)
Lemma pick_snoc l v lo hi :
  prepare_pick (l ++ [v]) lo hi =
  if in_rng lo hi v then Some (length l, v) else prepare_pick l lo hi.
Proof. unfold prepare_pick. rewrite index_from_app, rev_app_distr. reflexivity. Qed.

(* the class chosen is the last member of the list whose version lies in the advertised
   range; none is chosen exactly when there is no such member *)
Lemma pick_spec vers lo hi :
  match prepare_pick vers lo hi with
  | Some (i, v) => exists l1 l2, vers = l1 ++ v :: l2 /\ i = length l1 /\
                   in_rng lo hi v = true /\ forall w, In w l2 -> in_rng lo hi w = false
  | None => forall w, In w vers -> in_rng lo hi w = false
  end.
Proof.
  induction vers as [|v l IH] using rev_ind; [intros w []|].
  rewrite pick_snoc. destruct (in_rng lo hi v) eqn:E.
  - exists l, []. repeat split; [exact E|intros w []].
  - destruct (prepare_pick l lo hi) as [[i u]|].
    + destruct IH as (l1 & l2 & -> & -> & Hu & Hl2).
      exists l1, (l2 ++ [v]). rewrite <- app_assoc. repeat split; [exact Hu|].
      intros w Hw. apply in_app_or in Hw as [Hw|[<-|[]]]; [apply Hl2; exact Hw|exact E].
    + intros w Hw. apply in_app_or in Hw as [Hw|[<-|[]]]; [apply IH; exact Hw|exact E].
Qed.

Theorem prepare_highest : forall vers allow lo hi,
  sorted_lt vers = true ->
  match prepare vers allow (Some (lo, hi)) with
  | Chosen i v => nth_error vers i = Some v /\ lo <= v <= hi /\
                  (forall w, In w vers -> lo <= w <= hi -> w <= v)
  | ErrNotImplemented => forall w, In w vers -> ~ (lo <= w <= hi)
  | _ => False
  end.
Proof.
  intros vers allow lo hi Hs. unfold prepare.
  pose proof (pick_spec vers lo hi) as S. unfold in_rng in S.
  destruct (prepare_pick vers lo hi) as [[i v]|].
  - destruct S as (l1 & l2 & -> & -> & Hv & Hl2).
    split; [rewrite nth_error_app2, Nat.sub_diag by lia; reflexivity|]. split; [lia|].
    (* for a list sorted by version, what stands before v is smaller *)
    intros w Hw Hr. apply in_app_or in Hw as [Hw|[<-|Hw]].
    + pose proof (sorted_app_lt _ _ _ Hs w Hw). lia.
    + lia.
    + specialize (Hl2 w Hw). lia.
  - intros w Hw. specialize (S w Hw). lia.
Qed.

(* api key unknown to the broker: only a builder with ALLOW_UNKNOWN_API_VERSION goes on,
   with its first class *)
Theorem prepare_unknown : forall vers allow,
  prepare vers allow None =
    if allow then match vers with v :: _ => Chosen 0 v | [] => ErrIndex end else ErrIncompatible.
Proof. reflexivity. Qed.

Lemma if_bool (c a b : bool) : (if c then a else b) = (c && a) || (negb c && b).
Proof. destruct c, a, b; reflexivity. Qed.

(* once the parameter fixes the api key, the guard is a boolean formula over comparisons
   of [ver] and the presence bits *)
Theorem meaning_guard : forall key ver present p,
  0 <= ver -> listed p = true -> applies key p = true -> present p = true ->
  expressible key ver p = false ->
  guard key ver present = false.
Proof.
  intros key ver present p Hver Hl Ha Hp He.
  destruct p; try discriminate Hl; cbn [applies] in Ha; try apply orb_prop in Ha as [Ha|Ha].
  all: apply Z.eqb_eq in Ha; subst key; cbn in He |- *.
  all: rewrite ?if_bool; lia.
Qed.

(* an IncompatibleBrokerVersion from a guard is never spurious: some parameter that the
   version cannot express is present *)
Theorem guard_not_spurious : forall key ver present,
  guard key ver present = false ->
  exists p, applies key p = true /\ present p = true /\ expressible key ver p = false.
Proof.
  intros key ver present. unfold guard.
  destruct (key =? 0) eqn:K0.
  { intros H. exists PTransactionalId. cbn. destruct (present PTransactionalId); lia. }
  destruct (key =? 1) eqn:K1.
  { destruct (ver =? 4) eqn:?; [discriminate|]. destruct (5 <=? ver) eqn:?; [discriminate|].
    intros H. exists PIsolationLevel. cbn. rewrite K1. destruct (present PIsolationLevel); lia. }
  destruct (key =? 2) eqn:K2.
  { destruct (ver <? 2) eqn:?; [|discriminate].
    destruct (present PIsolationLevel) eqn:PI.
    - intros _. exists PIsolationLevel. cbn. rewrite K1, K2. lia.
    - destruct (ver =? 0) eqn:?; [|discriminate].
      intros H. exists PTimestampSearch. cbn. destruct (present PTimestampSearch); lia. }
  destruct (key =? 10) eqn:K10.
  { intros H. exists PCoordinatorType. cbn. destruct (present PCoordinatorType); lia. }
  destruct (key =? 15) eqn:K15.
  { intros H. exists PAuthorizedOps. cbn. destruct (present PAuthorizedOps); lia. }
  destruct (key =? 9) eqn:K9.
  { intros H. exists PPartitionsOmitted. cbn. destruct (present PPartitionsOmitted); lia. }
  destruct (key =? 19) eqn:K19.
  { intros H. exists PValidateOnly. cbn. destruct (present PValidateOnly); lia. }
  destruct (key =? 32) eqn:K32.
  { intros H. exists PIncludeSynonyms. cbn. destruct (present PIncludeSynonyms); lia. }
  destruct (key =? 21) eqn:K21.
  { intros H. exists PTags. cbn. destruct (present PTags); lia. }
  discriminate.
Qed.

(* the call in which [q] is the one parameter present; props/C11.v takes its witnesses of
   silently dropped parameters from it *)
Definition only (q : param) : param -> bool := param_eqb q.

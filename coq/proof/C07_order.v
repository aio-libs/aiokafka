(* C07_order.v — add_before_produce on EVERY accepted trace of model/C07_Txn.v, with no assumption on the client
   (it is what the repaired error_transaction / Sender._abortable_error guarantee together with muting and the
   priority rule).
   [kc]   per instance: what UNINITIALIZED / READY / "EndTxn applied" / FATAL imply for its sets;
   [reg]  an instance against the coordinator: what it takes for registered is registered there;
   [kinv] global: epochs identify instances, and [reg] holds of the one that has the coordinator's epoch. *)
From Coq Require Import ZArith List Bool Arith Lia.
From Verif Require Import Imp TxnTable C16_TxnApi C07_Txn C07_client C07_env C07_atomic.
Import ListNotations.
Local Open Scope nat_scope.

(* kc_end:  an EndTxn is applied only with nothing queued, in flight or pending ([end_ready]), and it stays so
            while cend is set;
   kc_slot: then, and in READY, the only task there can be is EndTxn;
   kc_toc:  a TxnOffsetCommit task exists only with the group registered at the client (AddOffsetsToTxn
            acknowledged), unless fatal_error has cleared the sets *)
Record kc (c : client) : Prop := {
  kc_un : cst c = UNINIT -> txn_parts c = [] /\ grp c = false /\ slot c = None /\ cend c = false /\
          pend_parts c = [] /\ pend_offs c = [];
  kc_rdy : cst c = READY -> txn_parts c = [] /\ grp c = false /\ pend_parts c = [] /\ pend_offs c = [];
  kc_end : cend c = true ->
           queue c = [] /\ inflight c = [] /\ deadb c = [] /\ pend_parts c = [] /\ pend_offs c = [] /\
           cst c <> IN_TXN /\ cst c <> ABORTABLE;
  kc_slot : cst c = READY \/ cend c = true -> forall k st, slot c = Some (k, st) -> k = KEnd;
  kc_toc : forall st, slot c = Some (KToc, st) -> grp c = true \/ cst c = FATAL;
  kc_fat : cst c = FATAL -> pend_offs c = [];
  kc_err : cerr c = true -> cst c = FATAL
}.
Definition gkc (s : gstate) : Prop := Forall kc (clients s).

Lemma kc_client0 : kc client0.
Proof. constructor; simpl; intros; try discriminate; auto 10. Qed.

Lemma next_kind_cases c k : next_kind c = Some k ->
  (k = KParts /\ pend_parts c <> []) \/
  (pend_parts c = [] /\ pend_offs c <> [] /\ ((k = KToc /\ grp c = true) \/ (k = KOffs /\ grp c = false))) \/
  (pend_parts c = [] /\ pend_offs c = [] /\ k = KEnd /\ (cst c = COMMITTING \/ cst c = ABORTING)).
Proof.
  unfold next_kind. destruct (pend_parts c) eqn:P; simpl.
  - destruct (pend_offs c) eqn:O; simpl.
    + destruct (cst c); intros H; inversion H; subst; right; right; auto.
    + destruct (grp c); intros H; inversion H; subst; right; left; repeat split; auto; discriminate.
  - intros H. inversion H. left. split; [reflexivity | discriminate].
Qed.

Lemma kc_not_ended c : kc c ->
  cst c = IN_TXN \/ cst c = ABORTABLE \/ pend_offs c <> [] \/
  (exists k st, slot c = Some (k, st) /\ k <> KEnd) \/ (exists b, In b (bq c)) ->
  cend c = false.
Proof.
  intros K H. apply not_true_is_false. intros Ce.
  destruct (kc_end _ K Ce) as (C1 & C2 & C3 & _ & C5 & C6 & C8).
  destruct H as [H|[H|[H|[(k & st & H & N)|(b & H)]]]]; try contradiction.
  - exact (N (kc_slot _ K (or_intror Ce) _ _ H)).
  - unfold bq in H. rewrite C1, C2, C3 in H. destruct H.
Qed.

(* an update that touches none of the fields [kc] reads; the batches may move while no EndTxn was applied *)
Lemma kc_same c c' : kc c ->
  cst c' = cst c -> txn_parts c' = txn_parts c -> grp c' = grp c -> slot c' = slot c -> cend c' = cend c ->
  pend_parts c' = pend_parts c -> pend_offs c' = pend_offs c -> cerr c' = cerr c ->
  cend c = false \/ queue c' = queue c /\ inflight c' = inflight c /\ deadb c' = deadb c -> kc c'.
Proof.
  intros [A B C S D E F] H1 H2 H3 H4 H5 H6 H7 H8 H9.
  constructor; rewrite ?H1, ?H2, ?H3, ?H4, ?H5, ?H6, ?H7, ?H8; auto.
  destruct H9 as [H9|(-> & -> & ->)]; [rewrite H9; discriminate | exact C].
Qed.

Lemma kc_answered c k st : kc c -> slot c = Some (k, SPicked) -> kc (set_slot c (Some (k, st))).
Proof.
  intros [A B C S D E F] Sl. constructor; simpl; auto.
  - intros K. destruct (A K) as (_ & _ & A3 & _). congruence.
  - intros K k0 st0 [= <- _]. exact (S K _ _ Sl).
  - intros st0 [= ->]. exact (D _ Sl).
Qed.

Lemma cstep_kc i en c e c' en' o : cstep i en c e c' en' o -> kc c -> kc c'.
Proof.
  intros CS KC. pose proof KC as [A B C S D E F]. pose proof (kc_not_ended c KC) as Ne.
  assert (Mv : forall n l x r, take_bid n l = Some (x, r) -> incl l (bq c) -> cend c = false).
  { intros n l x r T I. apply Ne. do 4 right. exists x. apply I. exact (proj1 (take_bid_some _ _ _ _ T)). }
  destruct CS; try solve [apply (kc_same c); auto].
  - (* cs_start *) destruct (A St) as (A1 & A2 & A3 & A4 & A5 & A6). constructor; simpl; try discriminate; auto.
    + rewrite A4. discriminate.
    + intros _ k st K. congruence.
    + rewrite A3. discriminate.
    + intros K. rewrite (F K) in St. discriminate.
  - (* cs_begin *) constructor; simpl; try discriminate; rewrite Sl; discriminate.
  - (* cs_accept_new *) constructor; simpl; auto; rewrite ?St, ?(Ne (or_introl St)); discriminate.
  - (* cs_offsets *) constructor; simpl; auto; rewrite ?St, ?(Ne (or_introl St)); discriminate.
  - (* cs_committing *) constructor; simpl; rewrite ?(Ne (or_introl St)); try discriminate.
    + intros [K|K]; discriminate.
    + intros st K. destruct (D st K) as [K1|K1]; [auto | congruence].
    + intros K. rewrite (F K) in St. discriminate.
  - (* cs_aborting *)
    assert (Ce : cend c = false) by (apply Ne; destruct St; auto).
    constructor; simpl; rewrite ?Ce; try discriminate.
    + intros [K|K]; discriminate.
    + intros st K. destruct (D st K) as [K1|K1]; [auto | destruct St; congruence].
    + intros K. rewrite (F K) in St. destruct St; discriminate.
  - (* cs_complete *) constructor; simpl; rewrite ?Qe, ?Ie, ?Pp, ?Po; try discriminate; auto.
    + intros _. repeat split; discriminate.
    + intros _ k st0 K. congruence.
    + intros st0 K. congruence.
    + intros K. rewrite (F K) in St. destruct St as [(K1 & _)|(K1 & _)]; discriminate.
  - (* cs_error *)
    assert (Ce : cend c = false) by (apply Ne; do 3 right; left; exists k, st; auto).
    constructor; unfold c_err; simpl; rewrite ?Ce; try discriminate; auto.
    + intros [K|K]; discriminate.
    + intros st' K. destruct (D st' K) as [K1|K1]; [auto|]. destruct St as [K2|[K2|K2]]; congruence.
    + intros K. rewrite (F K) in St. destruct St as [K2|[K2|K2]]; discriminate.
  - (* cs_fatal *) constructor; unfold c_clear; simpl; try discriminate; auto.
    + intros K. destruct (C K) as (C1 & C2 & C3 & _). repeat split; auto; discriminate.
    + intros [K|K]; [discriminate | exact (S (or_intror K))].
  - (* cs_pick *) constructor; simpl; auto.
    + intros K. destruct (A K) as (_ & _ & _ & _ & A5 & A6).
      destruct (next_kind_cases _ _ Nx) as [(_ & K2)|[(_ & K2 & _)|(_ & _ & _ & [K2|K2])]]; congruence.
    + (* nothing is pending: the task is EndTxn *)
      intros K k0 st [= <- _].
      assert (P : pend_parts c = [] /\ pend_offs c = []).
      { destruct K as [K|K]; [destruct (B K) as (_ & _ & P) | destruct (C K) as (_ & _ & _ & P1 & P2 & _)]; auto. }
      destruct P as (P1 & P2).
      destruct (next_kind_cases _ _ Nx) as [(_ & K2)|[(_ & K2 & _)|(_ & _ & K2 & _)]]; [contradiction .. | exact K2].
    + intros st [= ->].
      destruct (next_kind_cases _ _ Nx) as [(K2 & K3)|[(K2 & K3 & [(K4 & K5)|(K4 & K5)])|(K2 & K3 & K4 & K5)]];
        try discriminate; auto.
  - (* cs_done *) constructor; simpl; auto; try discriminate.
    intros K. destruct (A K) as (A1 & A2 & _ & A4). auto.
  - (* cs_part_added *) constructor; simpl; auto.
    + intros K. destruct (A K) as (_ & _ & A3 & _). congruence.
    + intros K. specialize (S (or_introl K) _ _ Sl). discriminate.
    + intros K. destruct (C K) as (_ & _ & _ & C4 & _). rewrite C4 in Ip. destruct Ip.
  - (* cs_group_added *) constructor; simpl; auto.
    + intros K. destruct (A K) as (_ & _ & A3 & _). congruence.
    + intros K. specialize (S (or_introl K) _ _ Sl). discriminate.
  - (* cs_off_committed *) constructor; simpl; auto.
    + intros K. destruct (A K) as (_ & _ & _ & _ & _ & A6). congruence.
    + intros K. destruct (B K) as (_ & _ & _ & B4). congruence.
    + intros K. destruct (C K) as (_ & _ & _ & _ & C5 & _). congruence.
    + intros K. rewrite (E K) in Po. discriminate.
  - (* cs_drain *) apply (kc_same c); auto. left. apply (Mv _ _ _ _ Tk), incl_appl, incl_refl.
  - (* cs_ok *) apply (kc_same c); auto. left. apply (Mv _ _ _ _ Tk), incl_appr, incl_appl, incl_refl.
  - (* cs_retry *) apply (kc_same c); auto. left. apply (Mv _ _ _ _ Tk), incl_appr, incl_appl, incl_refl.
  - (* cs_fail_inflight *) apply (kc_same c); auto. left. apply (Mv _ _ _ _ Tk), incl_appr, incl_appl, incl_refl.
  - (* cs_fail_queue *) apply (kc_same c); auto. left. apply (Mv _ _ _ _ Tk), incl_appl, incl_refl.
  - (* cs_refused *) apply kc_answered; assumption.
  - (* cs_add_parts *) apply (kc_same (set_slot c (Some (KParts, SApplied)))); auto. apply kc_answered; assumption.
  - (* cs_add_offs *) apply (kc_same (set_slot c (Some (KOffs, SApplied)))); auto. apply kc_answered; assumption.
  - (* cs_toc *) apply (kc_same (set_slot c (Some (KToc, SApplied)))); auto. apply kc_answered; assumption.
  - (* cs_end *) destruct Er as (Sl & Qe & Ie & Pp & Po & St).
    assert (Kc : cst c = COMMITTING \/ cst c = ABORTING) by (destruct St as [(K & _)|(K & _)]; auto).
    constructor; simpl; auto; try discriminate.
    + intros K. destruct Kc; congruence.
    + intros _. rewrite Qe, Ie, Pp, Po. repeat split; auto; destruct Kc; congruence.
    + intros _ k st [= <- _]. reflexivity.
  - (* cs_produce *) apply (kc_same c); auto. left. apply (Mv _ _ _ _ Tk), incl_appr.
    destruct (cst c); try (apply incl_app; [apply incl_appl, incl_refl | intros y []]). apply incl_refl.
Qed.

Definition registered (en : env) (p : nat) : Prop := est en = EOngoing /\ In p (eparts en).

(* r_req, r_offs: between the coordinator applying AddPartitionsToTxn / AddOffsetsToTxn and the client's bookkeeping
   (CPartAdded / CGroupAdded) the partitions of the request / the group are registered there and not yet in
   txn_parts / grp: CPartAdded and CGroupAdded keep r_parts / r_grp by them;
   r_fat: fatal_error clears the sets while the produce task may still send the batches it holds
   (inflight, deadb): their partitions were registered when it happened ([held_registered]) *)
Record reg (en : env) (c : client) : Prop := {
  r_parts : cend c = false -> forall p, In p (txn_parts c) -> registered en p;
  r_grp : cend c = false -> grp c = true -> registered en GROUPP;
  r_req : slot c = Some (KParts, SApplied) -> forall p, In p (creq c) -> registered en p;
  r_offs : slot c = Some (KOffs, SApplied) -> registered en GROUPP;
  r_fat : cst c = FATAL -> forall b, In b (inflight c ++ deadb c) -> registered en (bpart b)
}.

Lemma reg_mono en en' c : (forall p, registered en p -> registered en' p) -> reg en c -> reg en' c.
Proof. intros M [A B C D E]. constructor; auto. Qed.

Lemma reg_ext en en' c : est en' = est en -> eparts en' = eparts en -> reg en c -> reg en' c.
Proof. intros E1 E2. apply reg_mono. unfold registered. rewrite E1, E2. auto. Qed.

Lemma reg_add en ps t c : reg en c -> reg (env_add en ps t) c.
Proof. apply reg_mono. intros p (_ & H). split; [reflexivity | apply unionn_In; auto]. Qed.

(* an update that touches none of the fields [reg] reads; the task may change unless it becomes an applied
   registration, the state unless it becomes FATAL, and batches only move or disappear *)
Lemma reg_same en c c' : reg en c ->
  cend c' = cend c -> txn_parts c' = txn_parts c -> grp c' = grp c ->
  (slot c' = Some (KParts, SApplied) -> slot c = Some (KParts, SApplied) /\ creq c' = creq c) ->
  (slot c' = Some (KOffs, SApplied) -> slot c = Some (KOffs, SApplied)) ->
  (cst c' = FATAL -> cst c = FATAL) ->
  (cst c = FATAL -> forall b, In b (inflight c' ++ deadb c') ->
                    exists b0, In b0 (inflight c ++ deadb c) /\ bpart b0 = bpart b) ->
  reg en c'.
Proof.
  intros [A B C D E] H1 H2 H3 H4 H5 H6 H7. constructor; rewrite ?H1, ?H2, ?H3; auto.
  - intros Sl. destruct (H4 Sl) as (Q & ->). auto.
  - intros Fa b Hb. destruct (H7 (H6 Fa) b Hb) as (b0 & Q1 & <-). auto.
Qed.

Lemma same_batches l : forall b : batch, In b l -> exists b0, In b0 l /\ bpart b0 = bpart b.
Proof. intros b H. exists b. auto. Qed.

Lemma tst_dec (a b : tst) : {a = b} + {a <> b}.
Proof. decide equality. Qed.

Lemma held_registered en c : reg en c -> kc c -> cinv c ->
  forall b, In b (inflight c ++ deadb c) -> registered en (bpart b).
Proof.
  intros R Kc Ci b Hb. destruct (tst_dec (cst c) FATAL) as [Fa|Nf]; [exact (r_fat _ _ R Fa b Hb)|].
  assert (Ce : cerr c = false).
  { apply not_true_is_false. intros Z. exact (Nf (kc_err _ Kc Z)). }
  apply (r_parts _ _ R).
  - apply (kc_not_ended c Kc). do 4 right. exists b. unfold bq. apply in_or_app. auto.
  - exact (sent_registered c b Ci Ce Hb).
Qed.

Lemma cstep_reg i en c e c' en' o :
  cstep i en c e c' en' o -> kc c -> cinv c -> cst c <> UNINIT -> reg en c -> reg en' c'.
Proof.
  intros CS Kc Ci Nu R. pose proof R as [A B C D E].
  destruct CS; try solve [apply (reg_same en c); auto using same_batches; discriminate].
  - (* cs_start *) contradiction.
  - (* cs_begin *) destruct (kc_rdy _ Kc St) as (B1 & B2 & _).
    constructor; simpl; rewrite ?B1, ?B2, ?Sl; try discriminate. intros _ p [].
  - (* cs_complete *) constructor; simpl; auto; try discriminate. intros _ p [].
  - (* cs_fatal *) constructor; unfold c_clear; simpl; auto; try discriminate.
    + intros _ p [].
    + intros _. exact (held_registered en c R Kc Ci).
  - (* cs_part_added *) constructor; simpl; auto.
    intros Ce q Hq. apply addn_In in Hq. destruct Hq as [Hq| ->]; auto.
  - (* cs_group_added *) constructor; simpl; auto.
  - (* cs_drain *) apply (reg_same en c); auto. contradiction.
  - (* cs_ok *) destruct (take_bid_some _ _ _ _ Tk) as (_ & _ & T3 & _).
    apply (reg_same en c); auto. intros _ b0 Hb. exists b0. split; [|reflexivity]. simpl in Hb.
    rewrite !in_app_iff in *. destruct Hb; auto.
  - (* cs_retry *) destruct (take_bid_some _ _ _ _ Tk) as (_ & _ & T3 & _).
    apply (reg_same en c); auto. intros _ b0 Hb. exists b0. split; [|reflexivity]. simpl in Hb.
    rewrite !in_app_iff in *. destruct Hb; auto.
  - (* cs_fail_inflight *) destruct (take_bid_some _ _ _ _ Tk) as (T1 & _ & T3 & _).
    apply (reg_same en c); auto. intros _ b0 Hb. exists b0. split; [|reflexivity]. simpl in Hb.
    rewrite !in_app_iff in *. simpl in Hb. destruct Hb as [Hb|[Hb|[Hb|[]]]]; auto. subst; auto.
  - (* cs_add_parts *) destruct (reg_add en ps (tagof i c) c R) as [A' B' C' D' E'].
    constructor; simpl; auto; try discriminate.
    intros _ p Hp. split; [reflexivity | apply unionn_In; auto].
  - (* cs_add_offs *) destruct (reg_add en [GROUPP] (tagof i c) c R) as [A' B' C' D' E'].
    constructor; simpl; auto; try discriminate.
    intros _. split; [reflexivity | apply addn_In; auto].
  - (* cs_toc *) apply (reg_ext en); [reflexivity ..|]. apply (reg_same en c); auto using same_batches; discriminate.
  - (* cs_end *) destruct Er as (_ & _ & _ & _ & _ & St). constructor; simpl; try discriminate.
    intros Fa. destruct St as [(K & _)|(K & _)]; congruence.
  - (* cs_produce *) apply (reg_ext en); [reflexivity ..|]. apply (reg_same en c); auto.
    intros _ b0 Hb. apply in_app_or in Hb.
    destruct Hb as [Hb|Hb]; [|exists b0; split; [apply in_or_app; auto | reflexivity]].
    destruct (mark_app_spec _ _ _ Hb) as (b2 & Z1 & (_ & Z3 & _) & _). exists b2. split; [apply in_or_app; auto | auto].
Qed.

Definition startedc (c : client) : Prop := cst c <> UNINIT.
Definition livec (s : gstate) (c : client) : Prop := startedc c /\ cep c = eep (genv s).

Record kinv (s : gstate) : Prop := {
  k_le : forall i c, cl s i = Some c -> startedc c -> cep c <= eep (genv s);
  k_iss : forall e, In e (eissued (genv s)) -> e <= eep (genv s);
  k_ni : forall i c, cl s i = Some c -> startedc c -> ~ In (cep c) (eissued (genv s));
  k_uniq : forall i j c c', cl s i = Some c -> cl s j = Some c' -> startedc c -> startedc c' ->
           cep c = cep c' -> i = j;
  k_first : einit (genv s) = false ->
            (forall i c, cl s i = Some c -> cst c = UNINIT) /\ eissued (genv s) = [];
  k_reg : forall i c, cl s i = Some c -> livec s c -> reg (genv s) c
}.

Lemma kinv_g0 n : kinv (g0 n).
Proof.
  constructor; simpl; intros; try contradiction; auto.
  - apply cl_g0 in H. subst. exfalso. apply H0. reflexivity.
  - apply cl_g0 in H. apply cl_g0 in H0. subst. exfalso. apply H1. reflexivity.
  - split; [|reflexivity]. intros i c K. apply cl_g0 in K. subst. reflexivity.
  - apply cl_g0 in H. subst. destruct H0 as (K & _). exfalso. apply K. reflexivity.
Qed.

(* the epoch moves on: nobody is live any more *)
Lemma kinv_fence s :
  kinv s -> kinv (put_env s (env_st (genv s) (EPrep false) (S (eep (genv s))))).
Proof.
  intros [Kle Kiss Kni Kun Kf Kr]. constructor; simpl.
  - intros i c A B. pose proof (Kle i c A B). lia.
  - intros e A. pose proof (Kiss e A). lia.
  - exact Kni.
  - exact Kun.
  - exact Kf.
  - intros i c A (S0 & E). simpl in E. pose proof (Kle i c A S0). lia.
Qed.

Lemma kinv_initok s :
  kinv s ->
  kinv (put_env s (mkE EEmpty (if einit (genv s) then S (eep (genv s)) else eep (genv s)) true
                       ((if einit (genv s) then S (eep (genv s)) else eep (genv s)) :: eissued (genv s))
                       [] (glog (genv s)) None (edone (genv s)))).
Proof.
  intros [Kle Kiss Kni Kun Kf Kr].
  destruct (einit (genv s)) eqn:I.
  - assert (NL : forall i c, cl s i = Some c -> cst c <> UNINIT -> cep c <> S (eep (genv s))).
    { intros i c A S0 E. pose proof (Kle i c A S0). lia. }
    constructor; simpl.
    + intros i c A B. pose proof (Kle i c A B). lia.
    + intros e [A|A]; [lia|]. pose proof (Kiss e A). lia.
    + intros i c A B [C|C]; [exact (NL i c A B (eq_sym C)) | exact (Kni i c A B C)].
    + exact Kun.
    + discriminate.
    + intros i c A (S0 & E). destruct (NL i c A S0 E).
  - (* the first InitProducerId: no instance has started *)
    destruct (Kf eq_refl) as (Kf1 & Kf2).
    constructor; simpl.
    + intros i c A B. destruct B. eauto.
    + intros e [A|A]; [lia | auto].
    + intros i c A B. destruct B. eauto.
    + intros i j c c' A B S0. destruct S0. eauto.
    + discriminate.
    + intros i c A (S0 & _). destruct S0. eauto.
Qed.

(* the markers are written: since PrepareCommit / PrepareAbort nothing counts as registered *)
Lemma kinv_markers s c0 :
  est (genv s) = EPrep c0 -> kinv s ->
  kinv (put_env s (mkE (EDone c0) (eep (genv s)) (einit (genv s)) (eissued (genv s)) []
                       (glog (genv s) ++ markers (eparts (genv s)) (eep (genv s)) c0)
                       None (edone (genv s) ++ [(eowner (genv s), c0)]))).
Proof.
  intros Es [Kle Kiss Kni Kun Kf Kr].
  constructor; simpl; auto.
  intros i c A L. apply (reg_mono (genv s)); [|exact (Kr i c A L)]. intros p (K & _). congruence.
Qed.

Lemma kinv_start s i c ep ed' :
  cl s i = Some c -> cst c = UNINIT -> kc c -> In ep (eissued (genv s)) -> kinv s ->
  kinv (mkG (set_nth i (set_cep (set_cst c READY) ep) (clients s))
            (mkE (est (genv s)) (eep (genv s)) (einit (genv s)) (remn ep (eissued (genv s))) (eparts (genv s))
                 (glog (genv s)) (eowner (genv s)) (edone (genv s)))
            ed').
Proof.
  intros Hc Un Kc Hin [Kle Kiss Kni Kun Kf Kr].
  set (c' := set_cep (set_cst c READY) ep). set (en' := mkE _ _ _ _ _ _ _ _).
  pose proof (cl_upd_inv s i c c' en' ed' Hc) as Up.
  constructor; simpl.
  - intros j c0 A B. destruct (Up _ _ A) as [(-> & ->)|(N & A')]; [simpl; auto | eauto].
  - intros e A. apply remn_In in A. destruct A as (A & _). auto.
  - intros j c0 A B C. apply remn_In in C. destruct C as (C1 & C2).
    destruct (Up _ _ A) as [(-> & ->)|(N & A')]; [destruct (C2 eq_refl) | exact (Kni j c0 A' B C1)].
  - intros j k c0 c1 A B S0 S1 E.
    destruct (Up _ _ A) as [(-> & ->)|(N & A')]; destruct (Up _ _ B) as [(-> & ->)|(N' & B')]; [reflexivity | | | eauto].
    + simpl in E. destruct (Kni k c1 B' S1). rewrite <- E. exact Hin.
    + simpl in E. destruct (Kni j c0 A' S0). rewrite E. exact Hin.
  - intros K. destruct (Kf K) as (_ & Kf2). rewrite Kf2 in Hin. destruct Hin.
  - intros j c0 A L.
    destruct (Up _ _ A) as [(-> & ->)|(N & A')]; [|exact (reg_ext (genv s) en' _ eq_refl eq_refl (Kr j c0 A' L))].
    destruct (kc_un _ Kc Un) as (U1 & U2 & U3 & _).
    constructor; simpl; rewrite ?U1, ?U2, ?U3; try discriminate. intros _ p [].
Qed.

(* apart from AStart, an event leaves the epoch of its instance and the epochs of the coordinator alone, and an
   instance that has not started stays so *)
Lemma cstep_ids i en c e c' en' o : cstep i en c e c' en' o ->
  (exists ep, e = AStart i ep) \/
  (cst c = UNINIT -> cst c' = UNINIT) /\ cep c' = cep c /\ eep en' = eep en /\ eissued en' = eissued en /\
  einit en' = einit en.
Proof.
  intros CS. destruct CS; [eauto | right ..]; simpl; repeat split; auto; try congruence.
  - destruct St; congruence.
  - destruct St as [(K & _)|(K & _)]; congruence.
  - destruct St as [K|[K|K]]; congruence.
  - destruct Es as [(_ & ->)|(_ & ->)]; reflexivity.
  - destruct Es as [(_ & ->)|(_ & ->)]; reflexivity.
  - destruct Es as [(_ & ->)|(_ & ->)]; reflexivity.
Qed.

(* an event that changes the coordinator's state or partitions comes from the instance that holds its epoch *)
Lemma cstep_env i en c e c' en' o : cstep i en c e c' en' o -> kc c ->
  est en' = est en /\ eparts en' = eparts en \/ cst c <> UNINIT /\ cep c = eep en.
Proof.
  intros CS Kc.
  assert (Nu : forall k st, slot c = Some (k, st) -> cst c <> UNINIT).
  { intros k st Sl U. destruct (kc_un _ Kc U) as (_ & _ & U3 & _). congruence. }
  destruct CS; auto; right; eauto.
  destruct Er as (Sl & _). eauto.
Qed.

Lemma kinv_cstep s i c e c' en' o ed' :
  cl s i = Some c -> kc c -> cinv c -> kinv s -> cstep i (genv s) c e c' en' o ->
  (cst c = UNINIT -> cst c' = UNINIT) /\ cep c' = cep c /\ eep en' = eep (genv s) /\
  eissued en' = eissued (genv s) /\ einit en' = einit (genv s) ->
  kinv (mkG (set_nth i c' (clients s)) en' ed').
Proof.
  intros Hc Kc Ci [Kle Kiss Kni Kun Kf Kr] CS (Un & Ep & Ee & Ei & Ein).
  pose proof (cl_upd_inv s i c c' en' ed' Hc) as Up.
  assert (St : startedc c' -> startedc c) by (intros N U; exact (N (Un U))).
  constructor; simpl; rewrite ?Ee, ?Ei, ?Ein.
  - intros j d A B. destruct (Up _ _ A) as [(-> & ->)|(N & A')]; [|eauto].
    rewrite Ep. apply (Kle i c Hc), St, B.
  - exact Kiss.
  - intros j d A B. destruct (Up _ _ A) as [(-> & ->)|(N & A')]; [|eauto].
    rewrite Ep. apply (Kni i c Hc), St, B.
  - intros j k d0 d1 A B S0 S1 E.
    destruct (Up _ _ A) as [(-> & ->)|(N & A')]; destruct (Up _ _ B) as [(-> & ->)|(N' & B')].
    + reflexivity.
    + apply (Kun i k c d1 Hc B'); [apply St; exact S0 | exact S1 | congruence].
    + apply (Kun j i d0 c A' Hc); [exact S0 | apply St; exact S1 | congruence].
    + eauto.
  - intros K. destruct (Kf K) as (Kf1 & Kf2). split; [|exact Kf2].
    intros j d A. destruct (Up _ _ A) as [(-> & ->)|(N & A')]; [apply Un|]; eauto.
  - intros j d A (L1 & L2). simpl in L2. rewrite Ee in L2. destruct (Up _ _ A) as [(-> & ->)|(N & A')].
    + apply (cstep_reg _ _ _ _ _ _ _ CS Kc Ci (St L1)), (Kr i c Hc). split; [exact (St L1) | congruence].
    + (* another instance holds the epoch: the event has not changed the coordinator *)
      destruct (cstep_env _ _ _ _ _ _ _ CS Kc) as [(E1 & E2)|(L3 & L4)].
      * apply (reg_ext (genv s)); auto. apply (Kr j d A'). split; assumption.
      * destruct N. apply (Kun j i d c A' Hc L1 L3). congruence.
Qed.

Lemma step_kinv s e s' : step s e = Some s' -> gcinv s -> gkc s -> kinv s -> kinv s'.
Proof.
  intros H GC GK K. destruct (step_inv _ _ _ H) as [en' ES | i c c' en' o Hc Al CS].
  - destruct ES; [apply kinv_fence | apply kinv_markers | subst ep; apply kinv_initok]; assumption.
  - pose proof (Forall_nth_error _ _ _ _ GK Hc) as Kc.
    destruct (cstep_ids _ _ _ _ _ _ _ CS) as [(ep & ->)|Ids].
    + cstep_cases CS. apply kinv_start; assumption.
    + exact (kinv_cstep s i c e c' en' o _ Hc Kc (Forall_nth_error _ _ _ _ GC Hc) K CS Ids).
Qed.

Lemma run_order_inv : forall tr s s', run s tr = Some s' ->
  gcinv s -> gkc s -> kinv s -> gcinv s' /\ gkc s' /\ kinv s'.
Proof.
  induction tr as [|e tr IH]; intros s s' H GC GK K; simpl in H.
  - injection H as <-. auto.
  - destruct (step s e) as [s1|] eqn:S; [|discriminate]. apply (IH s1 s' H).
    + exact (step_clients cinv cstep_cinv _ _ _ S GC).
    + exact (step_clients kc cstep_kc _ _ _ S GK).
    + exact (step_kinv _ _ _ S GC GK K).
Qed.

(* obligation 1: whenever a leader appends a transactional batch (the group coordinator a transactional offset
   commit), the transaction coordinator is in Ongoing and has that partition (the group) registered *)
Theorem add_before_produce n tr s e s' :
  run (g0 n) tr = Some s -> step s e = Some s' -> ob s e <> Some 1.
Proof.
  intros R S.
  destruct (run_order_inv tr (g0 n) s R (clients_g0 _ n cinv_client0) (clients_g0 _ n kc_client0) (kinv_g0 n))
    as (GC & GK & K).
  destruct e; try (simpl; discriminate).
  - (* AComplete: obligation 4 only *)
    unfold ob. destruct (get s i) as [c|]; [|discriminate].
    destruct (match cst c with ABORTING => csent c | _ => false end); [discriminate|].
    destruct (slot_is c KEnd SApplied); [discriminate|].
    destruct (cst c); try (destruct (is_niln (accepted c)); discriminate).
    destruct (owner_is _ _ && _); discriminate.
  - (* RAddParts: obligation 3 only *)
    destruct v; [|simpl; discriminate]. unfold ob.
    destruct (get s i) as [c|]; [|discriminate].
    destruct (is_ongoing (genv s)); [destruct (owner_is _ _ || _) | destruct (cowned c)]; discriminate.
  - (* RAddOffs: obligation 3 only *)
    destruct v; [|simpl; discriminate]. unfold ob.
    destruct (get s i) as [c|]; [|discriminate].
    destruct (is_ongoing (genv s)); [destruct (owner_is _ _ || _) | destruct (cowned c)]; discriminate.
  - (* RToc *)
    destruct v; [|simpl; discriminate].
    destruct (step_inv _ _ _ S) as [? ES | j c c' en' o Hc [Al|[]] CS]; [inversion ES|]. cstep_cases CS.
    pose proof (Forall_nth_error _ _ _ _ GK Hc) as Kc.
    assert (Nu : cst c <> UNINIT).
    { intros U. destruct (kc_un _ Kc U) as (_ & _ & U3 & _). congruence. }
    assert (Gr : grp c = true).
    { destruct (kc_toc _ Kc _ Sl) as [G|G]; [exact G|]. rewrite (kc_fat _ Kc G) in Po. discriminate. }
    assert (Ce : cend c = false).
    { apply (kc_not_ended c Kc). right. right. left. congruence. }
    destruct (r_grp _ _ (k_reg _ K i c Hc (conj Nu Ep)) Ce Gr) as (O & M). apply memn_In in M.
    unfold ob, is_ongoing. rewrite (get_alive _ _ _ Hc Al), O, M. simpl.
    destruct (owner_is _ _); discriminate.
  - (* REndTxn: obligations 2-4 only *)
    destruct v; [|simpl; discriminate]. unfold ob.
    destruct (get s i) as [c|]; [|discriminate].
    destruct (est (genv s)); try discriminate.
    + destruct (owner_is _ _); simpl; [destruct (commit && lostb c)|]; discriminate.
    + destruct (last_done_owner (genv s)) as [o|]; [destruct (tag_eqb o _)|]; discriminate.
  - (* RProduce *)
    destruct v; [|simpl; discriminate].
    destruct (step_inv _ _ _ S) as [? ES | j c c' en' o Hc _ CS]; [inversion ES|]. cstep_cases CS.
    pose proof (Forall_nth_error _ _ _ _ GK Hc) as Kc. pose proof (Forall_nth_error _ _ _ _ GC Hc) as Ci.
    destruct (take_bid_some _ _ _ _ Tk) as (T1 & _).
    assert (Xin : In x (inflight c ++ deadb c)).
    { rewrite !in_app_iff in *. destruct T1 as [T1|T1]; auto. destruct (cst c); simpl in T1; try contradiction; auto. }
    assert (Nu : cst c <> UNINIT).
    { intros U. destruct (ci_idle _ Ci (or_introl U)) as (_ & I1 & I2). rewrite I1, I2 in Xin. destruct Xin. }
    destruct (held_registered _ c (k_reg _ K i c Hc (conj Nu Ep)) Kc Ci x Xin) as (O & M). apply memn_In in M.
    unfold ob, is_ongoing. unfold cl in Hc. rewrite Hc, Tk, O, M. simpl.
    destruct (Nat.eqb (btag x) (kcur c) && owner_is (genv s) (i, btag x)); discriminate.
Qed.

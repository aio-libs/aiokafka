(* C19_close_proof.v — every step of the shutdown paths translated from /repo's source (gen/CloseShapes.v)
   satisfies the static condition; the environments that the statements of props/C19.v speak of. *)
From Coq Require Import List Bool Arith.
From Verif Require Import C19_Tasks C19_tasks_proof CloseShapes.
Import ListNotations.
Import CloseShapes.

Lemma consumer_group_safe : prog_safe slots consumer_group_stop = true.
Proof. vm_compute. reflexivity. Qed.
Lemma consumer_nogroup_safe : prog_safe slots consumer_nogroup_stop = true.
Proof. vm_compute. reflexivity. Qed.
Lemma producer_safe : prog_safe slots producer_stop = true.
Proof. vm_compute. reflexivity. Qed.

(* the slots that a program joins (c19_stop_joins_every_task: every background task is among them) *)
Definition joins (prog : list step) : list nat :=
  flat_map (fun s => match step_slot s with Some t => [t] | None => [] end) prog.

(* a non-trivial environment inside the state space: heartbeat parked in its sleep, the fetch routine in its
   wait, a fetch request in its retry back-off (the F9 state), a cancelled old fetch task still in the set *)
Definition env_example : list (list tstate) :=
  [[TParked 0 false]; [TParked 1 false]; [TParked 0 false]; []; [TParked 2 false];
   [TParked 1 false; TDoneCancelled]; [TUnstarted]; [TParked 0 false]; []].
(* one with failures: the heartbeat ended with GROUP_AUTHORIZATION_FAILED, the commit-refresh routine is
   parked at an await that will raise *)
Definition env_example_failed : list (list tstate) :=
  [[TDoneExc]; [TParked 0 true]; [TDoneOk]; []; [TUnstarted]; []; []; [TUnstarted]; []].

(* with internal errors admitted the consumer's stop() is stopped by the first crashed routine it joins
   without a guard: the fetch routine ended by its "Unexpected error" path *)
Definition env_fetch_crashed : list (list tstate) := [[]; []; []; []; [TDoneExc]; []; []; []; []].

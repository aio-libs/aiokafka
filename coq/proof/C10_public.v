(* C10_public.v — the full statement of C10, as a predicate of the state of the code. *)
From Coq Require Import ZArith List Bool String.
From Verif Require Import C10_Base C10_DecodeSafeCy C10_DecodeSafePy C10_wp C10_cy_proof.
Import ListNotations.
Open Scope Z_scope.
Open Scope string_scope.

(* every run of the driver
   (MemoryRecords -> batches -> [validate_crc] -> records) over ANY byte list ends with all records
   delivered or an ordinary Python exception — no out-of-bounds read, no non-termination, no
   SystemError / MemoryError / OverflowError from C-API internals *)
Definition C10_cy_safe (fx : fixes) : Prop :=
  forall crc32c crc32 dec validate buf, dec_small dec -> small buf ->
    ok_status (snd (cy_decode crc32c crc32 dec fx validate buf)).
Definition C10_py_safe (fx : fixes) : Prop :=
  forall crc32c crc32 dec validate buf,
    ok_status (snd (py_decode crc32c crc32 dec fx validate buf)).

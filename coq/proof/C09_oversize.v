(* C09_oversize.v — an uncompressed batch exceeds batch_size only when it holds a single record:
   for the Python limit predicate, and for the compiled one when no later record has offset 0. *)
From Coq Require Import ZArith List Bool Lia ZifyBool.
From Verif Require Import C09Bytes C09_Varint C09_RecordV2 C09_Valid C09_v2.
Import ListNotations.
Open Scope Z_scope.

(* a batch of two or more records stays within the limit: up to batch_size for the Python
   predicate, below it for the compiled one *)
Definition fits (i : impl) (c : cfg) (acc : list record) : Prop :=
  (2 <= List.length acc)%nat ->
  match i with
  | Py => HEADER_SIZE + blen (region_of acc) <= c_batch_size c
  | Cy => HEADER_SIZE + blen (region_of acc) < c_batch_size c
  end.

(* a record the limit applies to: the compiled predicate never refuses offset 0 *)
Definition limited (i : impl) (r : record) : Prop := i = Cy -> r_offset r <> 0.

Lemma run_spec_fits i c rs acc :
  Forall (limited i) rs -> fits i c acc -> fits i c (snd (run_spec i c acc rs)).
Proof.
  apply run_spec_inv. clear. intros acc r Hinv Hr E Hlen.
  rewrite region_snoc, blen_app. unfold refuses in E. destruct i.
  - destruct acc as [|r0 acc]; [cbn in Hlen; lia|]. cbn [nonempty andb] in E. lia.
  - specialize (Hr eq_refl). replace (r_offset r =? 0) with false in E by lia. cbn [negb andb] in E. lia.
Qed.

Lemma fits_single i c acc : fits i c acc ->
  match i with Py => c_batch_size c < size i (state_of acc) | Cy => c_batch_size c <= size i (state_of acc) end ->
  (List.length acc <= 1)%nat.
Proof.
  intros Hf Hbig. destruct (le_lt_dec (List.length acc) 1) as [Hle|Hgt]; [exact Hle|].
  specialize (Hf ltac:(lia)). destruct i; cbn [size state_of b_buf b_pos] in Hbig; lia.
Qed.

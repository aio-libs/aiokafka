(* The codes and outcomes that the statements about the Produce-response dispatch speak of, and what the dispatch
   does with a retriable code; the dispatch is translated from sender.py (gen/ProduceDispatch.v):
   SendProduceReqHandler.handle_response + _can_retry, with the `retriable` / `invalid_metadata`
   class attributes read from aiokafka/errors.py. *)
From Coq Require Import ZArith List Bool.
From Verif Require Import DispatchActs ProduceDispatch.
Import ListNotations.
Open Scope Z_scope.

(* retriable broker conditions of a Produce request (Kafka protocol: NOT_LEADER_OR_FOLLOWER,
   LEADER_NOT_AVAILABLE, UNKNOWN_TOPIC_OR_PARTITION, REQUEST_TIMED_OUT, NOT_ENOUGH_REPLICAS,
   NOT_ENOUGH_REPLICAS_AFTER_APPEND, KAFKA_STORAGE_ERROR) - the fault codes of C01/C02's quantifier *)
Definition kafka_produce_retriable : list Z := [3; 5; 6; 7; 19; 20; 56].
Definition leader_errors : list Z := [3; 5; 6].
Definition DUPLICATE_SEQUENCE_NUMBER : Z := 46.

Definition outcome (a : act) : bool :=
  match a with ASuccess | ADone | AFail | AReenqueue => true | _ => false end.
Definition n_outcomes (l : list act) : nat := length (filter outcome l).

(* a retriable code re-enqueues the batch, unless the producer is not idempotent and the batch has expired *)
Lemma retriable_reenqueued c idem expired : retriable c = true -> negb idem && expired = false ->
  produceDispatch c idem expired = if invalid_metadata c then [AMetadataUpdate; AReenqueue] else [AReenqueue].
Proof.
  intros R E. unfold produceDispatch, canRetry. rewrite E, R.
  (* the dispatch tests for no error (0) and DUPLICATE_SEQUENCE_NUMBER (46) first: neither is retriable *)
  destruct (Z.eqb_spec c 0) as [->|]; [discriminate R|].
  destruct (Z.eqb_spec c 46) as [->|]; [discriminate R|]. reflexivity.
Qed.

Lemma listed_retriable c : In c kafka_produce_retriable -> retriable c = true.
Proof. revert c. apply forallb_forall. reflexivity. (* [forallb retriable] computed over the seven codes *) Qed.

Lemma leader_errors_listed c : In c leader_errors -> retriable c = true /\ invalid_metadata c = true.
Proof. intros [<-|[<-|[<-|[]]]]; split; reflexivity. Qed.

From Coq Require Import ZArith String List Bool Lia ZifyBool.
From Verif Require Import Imp Bits C18_Scram.
Import ListNotations.
Open Scope Z_scope.

Definition wfbyte (b : Z) : Prop := 0 <= b < 256.
Definition wfb (l : bytes) : Prop := Forall wfbyte l.
(* the base64 alphabet including the padding character *)
Definition b64char (b : Z) : Prop :=
  48 <= b <= 57 \/ 65 <= b <= 90 \/ 97 <= b <= 122 \/ b = 43 \/ b = 47 \/ b = 61.

Lemma list_eqb_eq a b : list_eqb a b = true <-> a = b.
Proof.
  revert b. induction a as [|x a IH]; destruct b as [|y b]; cbn; try (split; congruence).
  rewrite andb_true_iff, IH, Z.eqb_eq. split; [intros [-> ->]; reflexivity|intros E; inversion E; auto].
Qed.

Lemma list_eqb_refl a : list_eqb a a = true.
Proof. apply list_eqb_eq. reflexivity. Qed.

Lemma is_prefix_spec p s : is_prefix p s = true <-> exists t, s = p ++ t.
Proof.
  revert s. induction p as [|x p IH]; intros s; cbn.
  - split; [intros _; exists s; reflexivity|reflexivity].
  - destruct s as [|y s].
    + split; [discriminate|intros [t E]; discriminate].
    + rewrite andb_true_iff, IH, Z.eqb_eq. split.
      * intros [-> [t ->]]. exists t. reflexivity.
      * intros [t E]. inversion E. split; [reflexivity|exists t; reflexivity].
Qed.

Lemma is_prefix_app p t : is_prefix p (p ++ t) = true.
Proof. apply is_prefix_spec. exists t. reflexivity. Qed.

Lemma strip_prefix_app p s : strip_prefix p (p ++ s) = Some s.
Proof. induction p as [|x p IH]; cbn; [reflexivity|]. rewrite Z.eqb_refl. exact IH. Qed.

Lemma notin_cons c x a : ~ In c (x :: a) -> (x =? c) = false /\ ~ In c a.
Proof.
  intros N. split; [apply Z.eqb_neq; intros ->; apply N; left; reflexivity|].
  intros I. apply N. right. exact I.
Qed.

Lemma Forall_notin {A} (P : A -> Prop) c l : ~ P c -> Forall P l -> ~ In c l.
Proof. intros Nc Hl I. rewrite Forall_forall in Hl. exact (Nc (Hl c I)). Qed.

Lemma split1_app c a b : ~ In c a -> split1 c (a ++ c :: b) = Some (a, b).
Proof.
  induction a as [|x a IH]; intros N; cbn; [rewrite Z.eqb_refl; reflexivity|].
  apply notin_cons in N as [-> N]. rewrite IH by exact N. reflexivity.
Qed.

Lemma split_on_nonnil c s : split_on c s <> [].
Proof.
  induction s as [|b s IH]; cbn; [discriminate|].
  destruct (b =? c); [discriminate|]. destruct (split_on c s); [contradiction|discriminate].
Qed.

Lemma split_on_none c a : ~ In c a -> split_on c a = [a].
Proof.
  induction a as [|x a IH]; intros N; cbn; [reflexivity|].
  apply notin_cons in N as [-> N]. rewrite IH by exact N. reflexivity.
Qed.

Lemma split_on_app c a b : ~ In c a -> split_on c (a ++ c :: b) = a :: split_on c b.
Proof.
  induction a as [|x a IH]; intros N; cbn; [rewrite Z.eqb_refl; reflexivity|].
  apply notin_cons in N as [-> N]. rewrite IH by exact N. reflexivity.
Qed.

Lemma escape_user_cons b u :
  escape_user (b :: u) =
  (if b =? 61 then esc_eq else if b =? 44 then esc_comma else [b]) ++ escape_user u.
Proof.
  unfold escape_user, replace1. cbn [flat_map]. rewrite flat_map_app. f_equal.
  destruct (b =? 61) eqn:E61; [reflexivity|].
  cbn. destruct (b =? 44); reflexivity.
Qed.

Lemma unescape_escape u : unescape (escape_user u) = Some u.
Proof.
  induction u as [|b u IH]; [reflexivity|].
  rewrite escape_user_cons.
  destruct (b =? 61) eqn:E61.
  - apply Z.eqb_eq in E61. subst b. cbn. rewrite IH. reflexivity.
  - destruct (b =? 44) eqn:E44.
    + apply Z.eqb_eq in E44. subst b. cbn. rewrite IH. reflexivity.
    + cbn [app unescape]. rewrite E44, E61, IH. reflexivity.
Qed.

Lemma escape_no_comma u : ~ In 44 (escape_user u).
Proof.
  induction u as [|b u IH]; [intros []|].
  rewrite escape_user_cons. intros I. apply in_app_or in I. destruct I as [I|I]; [|exact (IH I)].
  destruct (b =? 61) eqn:E61.
  - cbn in I. lia.
  - destruct (b =? 44) eqn:E44; cbn in I; lia.
Qed.

Lemma escape_nonnil u : u <> [] -> escape_user u <> [].
Proof.
  destruct u as [|b u]; [contradiction|]. intros _. rewrite escape_user_cons.
  destruct (b =? 61); [discriminate|]. destruct (b =? 44); discriminate.
Qed.

(* every '=' of the escaped name starts "=2C" or "=3D": the third clause of well-formedness,
   stated without the parser *)
Fixpoint eq_escaped (s : bytes) : Prop :=
  match s with
  | [] => True
  | b :: r =>
      (b = 61 -> exists r', r = 50 :: 67 :: r' \/ r = 51 :: 68 :: r') /\ eq_escaped r
  end.

Lemma escape_eq_escaped u : eq_escaped (escape_user u).
Proof.
  induction u as [|b u IH]; [exact I|].
  rewrite escape_user_cons.
  destruct (b =? 61) eqn:E61.
  - cbn. repeat split; try lia; try exact IH. intros _. exists (escape_user u). right. reflexivity.
  - destruct (b =? 44) eqn:E44.
    + cbn. repeat split; try lia; try exact IH. intros _. exists (escape_user u). left. reflexivity.
    + cbn. split; [lia|exact IH].
Qed.

Lemma first_wellformed user cnonce :
  user <> [] -> cnonce <> [] -> forallb printable cnonce = true ->
  rfc_parse_client_first (client_first user cnonce) = Some (client_first_bare user cnonce, user, cnonce).
Proof.
  intros Hu Hn Hp. unfold rfc_parse_client_first, client_first.
  rewrite strip_prefix_app. unfold client_first_bare. rewrite strip_prefix_app.
  change (s_comma_r_eq ++ cnonce) with (44 :: (s_r_eq ++ cnonce)).
  rewrite split1_app by apply escape_no_comma.
  pose proof (unescape_escape user) as Hue.
  destruct (escape_user user) eqn:E; [exfalso; exact (escape_nonnil user Hu E)|].
  rewrite Hue, strip_prefix_app.
  destruct cnonce as [|n0 n']; [contradiction|]. rewrite Hp. reflexivity.
Qed.

Definition is_ascii (b : Z) : Prop := 0 <= b <= 127.

Lemma utf8_ok_ascii l : Forall is_ascii l -> utf8_ok l = true.
Proof.
  induction 1 as [|b l Hb _ IH]; [reflexivity|].
  cbn [utf8_ok]. unfold in_range at 1.
  replace ((0 <=? b) && (b <=? 127)) with true by (unfold is_ascii in Hb; lia). exact IH.
Qed.

Definition foldv (l : bytes) (acc : Z) : Z := fold_left (fun a d => 10 * a + (d - 48)) l acc.
Definition digitp (b : Z) : Prop := 48 <= b <= 57.

Lemma dec_digits_digit fuel : forall n acc, 0 <= n -> Forall digitp acc -> Forall digitp (dec_digits fuel n acc).
Proof.
  induction fuel as [|f IH]; intros n acc Hn Ha; cbn [dec_digits]; [exact Ha|].
  destruct (n <? 10) eqn:E.
  - constructor; [unfold digitp; lia|exact Ha].
  - apply IH; [lia|]. constructor; [unfold digitp; lia|exact Ha].
Qed.

Lemma dec_digits_nonnil fuel n acc : dec_digits (S fuel) n acc <> [].
Proof.
  revert n acc. induction fuel as [|f IH]; intros n acc; cbn [dec_digits].
  - destruct (n <? 10); discriminate.
  - destruct (n <? 10); [discriminate|]. apply IH.
Qed.

Lemma foldv_dec_digits fuel : forall n acc,
  0 <= n < 10 ^ Z.of_nat fuel -> foldv (dec_digits fuel n acc) 0 = foldv acc n.
Proof.
  induction fuel as [|f IH]; intros n acc Hn.
  - cbn in Hn. replace n with 0 by lia. reflexivity.
  - cbn [dec_digits]. destruct (n <? 10) eqn:E.
    + unfold foldv. cbn [fold_left]. f_equal. lia.
    + rewrite IH.
      * unfold foldv. cbn [fold_left]. f_equal. lia.
      * rewrite Nat2Z.inj_succ, Z.pow_succ_r in Hn by lia. lia.
Qed.

Lemma dec_fuel_ok n : 0 <= n -> n < 10 ^ Z.of_nat (S (Z.to_nat (Z.log2 n))).
Proof.
  intros Hn. rewrite Nat2Z.inj_succ, Z2Nat.id by apply Z.log2_nonneg.
  destruct (Z.eq_dec n 0) as [->|Hz].
  - cbn. lia.
  - assert (Hl := Z.log2_spec n ltac:(lia)).
    assert (2 ^ Z.succ (Z.log2 n) <= 10 ^ Z.succ (Z.log2 n)).
    { apply Z.pow_le_mono_l. lia. }
    lia.
Qed.

Lemma digits_val_digits l : Forall digitp l -> forall acc pd,
  (l <> [] \/ pd = true) -> digits_val l acc pd = Some (foldv l acc).
Proof.
  induction 1 as [|b l Hb _ IH]; intros acc pd Hne.
  - destruct Hne as [Hne| ->]; [contradiction|reflexivity].
  - cbn [digits_val]. unfold is_digit, in_range.
    replace ((48 <=? b) && (b <=? 57)) with true by (unfold digitp in Hb; lia).
    rewrite IH by (right; reflexivity). reflexivity.
Qed.

Lemma lstrip_digits l : Forall digitp l -> lstrip l = l.
Proof.
  destruct 1 as [|b l Hb Hl]; [reflexivity|]. cbn. unfold is_space, in_range.
  replace ((9 <=? b) && (b <=? 13) || (b =? 32)) with false by (unfold digitp in Hb; lia).
  reflexivity.
Qed.

Lemma dec_digitp n : 0 <= n -> Forall digitp (dec n).
Proof. intros. apply dec_digits_digit; [assumption|constructor]. Qed.

Lemma py_int_dec n : 0 <= n -> py_int (dec n) = Some n.
Proof.
  intros Hn. unfold py_int, strip. pose proof (dec_digitp n Hn) as Hd.
  rewrite (lstrip_digits _ Hd).
  rewrite lstrip_digits by (apply Forall_rev; exact Hd).
  rewrite rev_involutive.
  destruct (dec n) as [|b r] eqn:E; [exfalso; exact (dec_digits_nonnil _ _ _ E)|].
  assert (Hb : digitp b) by (inversion Hd; assumption).
  replace (b =? 45) with false by (unfold digitp in Hb; lia).
  replace (b =? 43) with false by (unfold digitp in Hb; lia).
  rewrite digits_val_digits by (auto; left; discriminate).
  rewrite <- E. unfold dec. rewrite foldv_dec_digits; [reflexivity|].
  split; [exact Hn|apply dec_fuel_ok; exact Hn].
Qed.

(* ASCII and not a comma: on such bytes [utf8_ok] holds and [split_on] 44 finds nothing to split *)
Definition plain (b : Z) : Prop := 0 <= b <= 127 /\ b <> 44.

Lemma plain_no_comma l : Forall plain l -> ~ In 44 l.
Proof. apply Forall_notin. unfold plain. lia. Qed.

Lemma plain_ascii l : Forall plain l -> Forall is_ascii l.
Proof. apply Forall_impl. unfold plain, is_ascii. lia. Qed.

Lemma printable_plain l : forallb printable l = true -> Forall plain l.
Proof.
  intros Hp. rewrite forallb_forall in Hp. apply Forall_forall. intros b Hb.
  specialize (Hp _ Hb). unfold printable, in_range in Hp. unfold plain. lia.
Qed.

Lemma b64char_plain b : b64char b -> plain b.
Proof. unfold b64char, plain. lia. Qed.

Lemma dec_plain n : 0 <= n -> Forall plain (dec n).
Proof.
  intros Hn. eapply Forall_impl; [|apply dec_digitp; exact Hn]. unfold digitp, plain. lia.
Qed.

Lemma xor_involutive a : forall b, (List.length a <= List.length b)%nat -> xor_bytes (xor_bytes a b) b = a.
Proof.
  induction a as [|x a IH]; intros b Hl; [destruct b; reflexivity|].
  destruct b as [|y b]; [cbn in Hl; lia|].
  cbn. rewrite IH by (cbn in Hl; lia). f_equal.
  rewrite Z.lxor_assoc, Z.lxor_nilpotent, Z.lxor_0_r. reflexivity.
Qed.

Lemma xor_wfb a : forall b, wfb a -> wfb b -> wfb (xor_bytes a b).
Proof.
  induction a as [|x a IH]; intros b Ha Hb; [destruct b; constructor|].
  destruct b as [|y b]; [constructor|].
  inversion Ha; inversion Hb; subst. cbn. constructor; [|apply IH; assumption].
  unfold wfbyte in *. change 256 with (2 ^ 8). apply lxor_nonneg_lt; lia.
Qed.

Section Proofs.
  (* each lemma depends on the primitives its statement mentions, and on no other *)
  Local Set Default Proof Using "Type".
  Variable H : bytes -> bytes.
  Variable HMAC : bytes -> bytes -> bytes.
  Variable Hi : bytes -> bytes -> Z -> bytes.
  Variable b64 : bytes -> bytes.
  Variable unb64 : bytes -> option bytes.

  Definition hyp_unb64_b64 : Prop := forall x, wfb x -> unb64 (b64 x) = Some x.
  Definition hyp_b64_alphabet : Prop := forall x, Forall b64char (b64 x).
  Definition hyp_hmac_len : Prop := exists hlen : nat, forall k m, List.length (HMAC k m) = hlen.
  Definition hyp_hmac_wfb : Prop := forall k m, wfb (HMAC k m).

  Notation step2' := (step2 H HMAC Hi b64 unb64).
  Notation step3' := (step3 unb64).
  Notation session' := (session H HMAC Hi b64 unb64).

  Definition server_nonce_of (sf : bytes) : option bytes :=
    if utf8_ok sf then match parse_attrs sf with Some attrs => lookup k_r attrs | None => None end
    else None.

  Lemma step2_ok_inv user pw cnonce sf cfin sig :
    step2' user pw cnonce sf = Ok (cfin, sig) ->
    exists attrs rn stxt salt itxt i,
      utf8_ok sf = true /\ parse_attrs sf = Some attrs /\
      lookup k_r attrs = Some rn /\ is_prefix cnonce rn = true /\
      lookup k_s attrs = Some stxt /\ unb64 stxt = Some salt /\
      lookup k_i attrs = Some itxt /\ py_int itxt = Some i /\ 1 <= i <= 2147483647 /\
      cfin = client_final rn (b64 (client_proof H HMAC (Hi pw salt i) (auth_message user cnonce sf rn))) /\
      sig = HMAC (HMAC (Hi pw salt i) s_server_key) (auth_message user cnonce sf rn).
  Proof.
    unfold step2. intros E.
    destruct (utf8_ok sf) eqn:Eu; cbn [negb] in E; [|discriminate].
    destruct (parse_attrs sf) as [attrs|] eqn:Ea; [|discriminate].
    destruct (lookup k_r attrs) as [rn|] eqn:Er; [|discriminate].
    destruct (is_prefix cnonce rn) eqn:Ep; cbn [negb] in E; [|discriminate].
    destruct (lookup k_s attrs) as [stxt|] eqn:Es; [|discriminate].
    destruct (unb64 stxt) as [salt|] eqn:Eb; [|discriminate].
    destruct (lookup k_i attrs) as [itxt|] eqn:Ei; [|discriminate].
    destruct (py_int itxt) as [i|] eqn:Ep2; [|discriminate].
    destruct ((i >? 2147483647) || (i <? -9223372036854775808)) eqn:Eo; [discriminate|].
    destruct (i <? 1) eqn:E1; [discriminate|].
    inversion E; subst. exists attrs, rn, stxt, salt, itxt, i.
    repeat split; try assumption; try reflexivity; lia.
  Qed.

  (* nonce check: step2 goes through only for a server nonce that extends the client's *)
  Lemma step2_ok_nonce user pw cnonce sf r :
    step2' user pw cnonce sf = Ok r ->
    exists rn, server_nonce_of sf = Some rn /\ is_prefix cnonce rn = true.
  Proof.
    destruct r as [cfin sig]. intros E2. apply step2_ok_inv in E2.
    destruct E2 as (attrs & rn & stxt & salt & itxt & i & Eu & Ea & Er & Ep & _).
    exists rn. unfold server_nonce_of. rewrite Eu, Ea, Er. auto.
  Qed.

  Definition server_sig_of (sfinal : bytes) : option bytes :=
    if utf8_ok sfinal then
      match parse_attrs sfinal with
      | Some attrs => match lookup k_v attrs with Some vtxt => unb64 vtxt | None => None end
      | None => None
      end
    else None.

  Lemma step3_iff sig sfinal : step3' sig sfinal = Ok tt <-> server_sig_of sfinal = Some sig.
  Proof.
    unfold step3, server_sig_of.
    destruct (utf8_ok sfinal); cbn [negb]; [|split; discriminate].
    destruct (parse_attrs sfinal) as [attrs|]; [|split; discriminate].
    destruct (lookup k_v attrs) as [vtxt|]; [|split; discriminate].
    destruct (unb64 vtxt) as [v|]; [|split; discriminate].
    destruct (list_eqb sig v) eqn:E.
    - apply list_eqb_eq in E. subst. split; reflexivity.
    - split; [discriminate|]. intros [= ->]. rewrite list_eqb_refl in E. discriminate.
  Qed.

  Lemma step3_cases sig sfinal : step3' sig sfinal = Ok tt \/ exists e, step3' sig sfinal = Exn e.
  Proof. destruct (step3' sig sfinal) as [[]|e]; [left; reflexivity|right; exists e; reflexivity]. Qed.

  Lemma b64_plain x : hyp_b64_alphabet -> Forall plain (b64 x).
  Proof. intros Ha. eapply Forall_impl; [apply b64char_plain|apply Ha]. Qed.

  Lemma server_sig_of_canonical x :
    hyp_unb64_b64 -> hyp_b64_alphabet -> wfb x -> server_sig_of ([118; 61] ++ b64 x) = Some x.
  Proof.
    intros Hu Ha Hx. unfold server_sig_of.
    assert (P : Forall plain ([118; 61] ++ b64 x))
      by (repeat (constructor; [unfold plain; repeat split; discriminate|]); apply b64_plain; exact Ha).
    rewrite utf8_ok_ascii by (apply plain_ascii; exact P).
    unfold parse_attrs. rewrite split_on_none by (apply plain_no_comma; exact P).
    cbn. rewrite (Hu x Hx). reflexivity.
  Qed.

  Lemma server_final_bits sig x :
    hyp_unb64_b64 -> hyp_b64_alphabet -> wfb x ->
    (step3' sig ([118; 61] ++ b64 x) = Ok tt <-> x = sig).
  Proof.
    intros Hu Ha Hx. rewrite step3_iff, server_sig_of_canonical by assumption.
    split; [intros E; inversion E; reflexivity|intros ->; reflexivity].
  Qed.

  Lemma honest_server_accepts user pw cnonce snonce salt i :
    hyp_unb64_b64 -> hyp_b64_alphabet -> hyp_hmac_len -> hyp_hmac_wfb ->
    forallb printable cnonce = true -> forallb printable snonce = true ->
    wfb salt -> 1 <= i <= 2147483647 ->
    let sf := srv_first b64 cnonce snonce salt i in
    let rn := cnonce ++ snonce in
    let bare := client_first_bare user cnonce in
    let auth := auth_message user cnonce sf rn in
    let cfin := client_final rn (b64 (client_proof H HMAC (Hi pw salt i) auth)) in
    strip_prefix s_gs2 (client_first user cnonce) = Some bare /\
    step2' user pw cnonce sf = Ok (cfin, expected_server_sig HMAC Hi pw salt i auth) /\
    srv_verify H HMAC unb64 (srv_stored_key H HMAC Hi pw salt i) bare sf rn cfin = true /\
    session' user pw cnonce sf (srv_final HMAC Hi b64 pw salt i auth) =
      [Emit (client_first user cnonce); Emit cfin; Complete].
  Proof.
    intros Hu Ha [hlen Hl] Hw Hpc Hps Hsalt Hi' sf rn bare auth cfin.
    (* the client accepts the server-first message: three comma-free ASCII attributes *)
    assert (Hsf : sf = (s_r_eq ++ rn) ++ 44 :: ((115 :: 61 :: b64 salt) ++ 44 :: (105 :: 61 :: dec i))).
    { unfold sf, srv_first, rn. repeat rewrite <- app_assoc. reflexivity. }
    assert (P1 : Forall plain (s_r_eq ++ rn)).
    { repeat (constructor; [unfold plain; repeat split; discriminate|]). apply Forall_app. split; apply printable_plain; assumption. }
    assert (P2 : Forall plain (115 :: 61 :: b64 salt))
      by (repeat (constructor; [unfold plain; repeat split; discriminate|]); apply b64_plain; exact Ha).
    assert (P3 : Forall plain (105 :: 61 :: dec i))
      by (repeat (constructor; [unfold plain; repeat split; discriminate|]); apply dec_plain; lia).
    set (attrs := [(k_r, rn); (k_s, b64 salt); (k_i, dec i)]).
    assert (Hparse : parse_attrs sf = Some attrs).
    { unfold parse_attrs. rewrite Hsf.
      rewrite !split_on_app, split_on_none by (apply plain_no_comma; assumption). reflexivity. }
    assert (Hutf : utf8_ok sf = true).
    { apply utf8_ok_ascii. rewrite Hsf.
      repeat first [apply plain_ascii; assumption | apply Forall_app; split
                   | apply Forall_cons; [unfold is_ascii; split; discriminate|]]. }
    assert (E2 : step2' user pw cnonce sf = Ok (cfin, expected_server_sig HMAC Hi pw salt i auth)).
    { unfold step2. rewrite Hutf, Hparse. cbn [negb].
      change (lookup k_r attrs) with (Some rn). change (lookup k_s attrs) with (Some (b64 salt)).
      change (lookup k_i attrs) with (Some (dec i)). cbn iota beta.
      unfold rn at 1. rewrite is_prefix_app. cbn [negb].
      rewrite (Hu salt Hsalt), py_int_dec by lia.
      replace ((i >? 2147483647) || (i <? -9223372036854775808)) with false by lia.
      replace (i <? 1) with false by lia.
      reflexivity. }
    split; [apply strip_prefix_app|]. split; [exact E2|].
    (* the server accepts the client-final message *)
    split.
    - unfold srv_verify, cfin, client_final. set (prf := client_proof H HMAC (Hi pw salt i) auth).
      assert (Hprf : wfb prf) by (apply xor_wfb; apply Hw).
      change (s_cbind ++ s_comma_r_eq ++ rn ++ s_comma_p_eq ++ b64 prf)
        with (s_cbind ++ 44 :: ((s_r_eq ++ rn) ++ 44 :: ([112; 61] ++ b64 prf))).
      rewrite split1_app by (cbn; lia).
      rewrite split1_app by (apply plain_no_comma; exact P1).
      rewrite strip_prefix_app, (Hu _ Hprf), !list_eqb_refl. cbn [andb].
      change (bare ++ [44] ++ sf ++ [44] ++ s_cbind ++ [44] ++ s_r_eq ++ rn) with auth.
      unfold srv_accepts, srv_stored_key, prf, client_proof, client_key.
      rewrite xor_involutive by (rewrite !Hl; lia). apply list_eqb_refl.
    - unfold session. rewrite E2.
      replace (step3' (expected_server_sig HMAC Hi pw salt i auth) (srv_final HMAC Hi b64 pw salt i auth))
        with (Ok tt); [reflexivity|].
      symmetry. apply server_final_bits; try assumption; [apply Hw|reflexivity].
  Qed.
End Proofs.

Module Sat.
  (* a toy instance: 4-byte "digests", hex-like encoding over 'A'..'P' *)
  Definition H (x : bytes) : bytes := [0; 0; 0; 0].
  Definition HMAC (k m : bytes) : bytes := [1; 2; 3; 4].
  Definition Hi (p s : bytes) (i : Z) : bytes := [5; 6; 7; 8].
  Definition b64 (x : bytes) : bytes := flat_map (fun b => [65 + (b mod 256) / 16; 65 + b mod 16]) x.
  Fixpoint unb64 (s : bytes) : option bytes :=
    match s with
    | [] => Some []
    | a :: b :: r => option_map (cons ((a - 65) * 16 + (b - 65))) (unb64 r)
    | _ => None
    end.

  Lemma sat_unb64_b64 : hyp_unb64_b64 b64 unb64.
  Proof.
    intros x Hx. induction Hx as [|b x Hb _ IH]; [reflexivity|].
    cbn [b64 flat_map app unb64]. fold (b64 x). rewrite IH. cbn [option_map]. f_equal. f_equal.
    unfold wfbyte in Hb. lia.
  Qed.

  Lemma sat_b64_alphabet : hyp_b64_alphabet b64.
  Proof.
    intros x. induction x as [|b x IH]; [constructor|].
    cbn [b64 flat_map app]. repeat (constructor; [unfold b64char; lia|]). exact IH.
  Qed.

  Lemma sat_hmac_len : hyp_hmac_len HMAC.
  Proof. exists 4%nat. reflexivity. Qed.

  Lemma sat_hmac_wfb : hyp_hmac_wfb HMAC.
  Proof. intros k m. repeat constructor; unfold wfbyte; lia. Qed.
End Sat.

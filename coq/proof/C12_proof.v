(* C12_proof.v — proofs about model/C12_Conn.v (connection LTS) and gen/NextCorr.v.
   [handle] is split into a decision read off the queue head and the frame ([decide]) and its
   effect ([perform]); every step is a sequence of elementary changes ([prim], [call]), walked
   once in Section Walk, so that a property of all steps is checked on those changes only. *)
From Coq Require Import ZArith List Bool Lia ZifyBool Arith Sorted Permutation.
From Verif Require Import ListFacts Imp NextCorr C12_Conn.
Import ListNotations.
Open Scope Z_scope.

Lemma nextcorr_post c : NextCorr.post c = (c + 1) mod 2147483648.
Proof. reflexivity. Qed.

Lemma nextcorr_py c : NextCorr.py c = Ok (NextCorr.post c).
Proof. reflexivity. Qed.

Lemma nextcorr_range c : 0 <= NextCorr.post c < 2147483648.
Proof. rewrite nextcorr_post. apply Z.mod_pos_bound. lia. Qed.

Fixpoint iter_corr (k : nat) (c : Z) : Z :=
  match k with O => c | S k' => NextCorr.post (iter_corr k' c) end.

Lemma iter_corr_S k c : iter_corr (S k) c = (c + Z.of_nat (S k)) mod 2147483648.
Proof.
  induction k as [|k IH]; [apply nextcorr_post|].
  cbn [iter_corr] in *. rewrite IH, nextcorr_post, Zplus_mod_idemp_l. f_equal. lia.
Qed.

Lemma iter_corr_closed k c : 0 <= c < 2147483648 -> iter_corr k c = (c + Z.of_nat k) mod 2147483648.
Proof.
  intros Hc. destruct k; [|apply iter_corr_S].
  cbn [iter_corr]. rewrite Z.add_0_r, Z.mod_small by lia. reflexivity.
Qed.

Lemma mod_neq_close M p q : 0 < q - p < M -> p mod M <> q mod M.
Proof.
  intros H E.
  assert (Hm : (q - p) mod M = 0).
  { rewrite Zminus_mod, E, Z.sub_diag. apply Z.mod_0_l. lia. }
  rewrite Z.mod_small in Hm by lia. lia.
Qed.

Lemma iter_corr_distinct c j k :
  0 <= c < 2147483648 -> (j < k)%nat -> Z.of_nat k - Z.of_nat j < 2147483648 ->
  iter_corr j c <> iter_corr k c.
Proof.
  intros Hc Hjk Hd. rewrite !iter_corr_closed by assumption. apply mod_neq_close. lia.
Qed.

(* after the first call the start value need not be in range *)
Lemma iter_corr_distinct_pos c j k :
  (0 < j < k)%nat -> Z.of_nat k - Z.of_nat j < 2147483648 -> iter_corr j c <> iter_corr k c.
Proof.
  intros Hjk Hd. destruct j, k; try lia. rewrite !iter_corr_S. apply mod_neq_close. lia.
Qed.

Lemma extract_frame_app b f rest c :
  extract b = Frame f rest -> extract (b ++ c) = Frame f (rest ++ c).
Proof.
  unfold extract.
  destruct b as [|a0 [|a1 [|a2 [|a3 r]]]]; try discriminate.
  cbn [app]. set (size := be32s a0 a1 a2 a3).
  destruct (size <? 0) eqn:Eneg; [discriminate|].
  destruct (Z.of_nat (length r) <? size) eqn:Elt; [discriminate|].
  intros [= <- <-].
  rewrite app_length.
  replace (Z.of_nat (length r + length c) <? size) with false by lia.
  assert (Hn : (Z.to_nat size <= length r)%nat) by lia.
  rewrite firstn_app, skipn_app.
  replace (Z.to_nat size - length r)%nat with O by lia.
  cbn [firstn skipn]. rewrite app_nil_r. reflexivity.
Qed.

Lemma extract_bad_app b c : extract b = BadSize -> extract (b ++ c) = BadSize.
Proof.
  unfold extract.
  destruct b as [|a0 [|a1 [|a2 [|a3 r]]]]; try discriminate.
  cbn [app]. destruct (be32s a0 a1 a2 a3 <? 0); [reflexivity|].
  destruct (Z.of_nat (length r) <? be32s a0 a1 a2 a3); discriminate.
Qed.

Lemma extract_frame_len b f rest : extract b = Frame f rest -> (length rest + 4 <= length b)%nat.
Proof.
  unfold extract.
  destruct b as [|a0 [|a1 [|a2 [|a3 r]]]]; try discriminate.
  destruct (be32s a0 a1 a2 a3 <? 0); [discriminate|].
  destruct (Z.of_nat (length r) <? be32s a0 a1 a2 a3); [discriminate|].
  intros [= _ <-]. cbn [length]. rewrite skipn_length. lia.
Qed.

Definition logged (e : entry) (w : option why) (lg : list logent) : list logent :=
  match w with Some w => log_of e w :: lg | None => lg end.

Section Basics.
  Variable decodes : Z -> bytes -> bool.
  Notation handle := (handle decodes).
  Notation drain := (drain decodes).
  Notation feed := (feed decodes).
  Notation step := (step decodes).
  Notation run := (run decodes).

  Definition with_rbuf (s : state) (b : bytes) : state :=
    mkS (reqs s) b (open s) (corr s) (nsent s) (log s).

  Lemma close_open c s : open (close c s) = false.
  Proof. unfold close. destruct (open s) eqn:E; [reflexivity|exact E]. Qed.

  Lemma close_rbuf_indep c s b : open s = true -> close c (with_rbuf s b) = close c s.
  Proof. unfold close, with_rbuf. cbn. intros ->. reflexivity. Qed.

  (* _handle_frame in two halves: what to do is read off the head of the queue and the frame;
     doing it touches the state *)
  Inductive act : Type :=
  | AClose (c : cause)
  | AMismatch                     (* CorrelationIdError for the head, then close *)
  | APop (w : option why).        (* drop the head; resolve its future with w unless it is done *)

  Definition decide (q : list entry) (f : bytes) : act :=
    match q with
    | [] => AClose CUnsolicited
    | e :: _ =>
        match e_corr e with
        | None => APop (if e_done e then None else Some (RawResp f))
        | Some c =>
            match parse_header (e_flex e) f with
            | None => AClose CMalformed
            | Some (rc, body) =>
                if negb (e_quirk e && negb (c =? 0) && (rc =? 0)) && negb (rc =? c) then AMismatch
                else if e_done e then APop None
                else if decodes (e_api e) body then APop (Some (Resp f)) else AClose CMalformed
            end
        end
    end.

  Definition perform (a : act) (s : state) : state :=
    match a, reqs s with
    | AClose c, _ => close c s
    | AMismatch, e :: tl =>
        close CNone (mkS (set_done e :: tl) (rbuf s) (open s) (corr s) (nsent s)
                         (if e_done e then log s else log_of e CorrErr :: log s))
    | APop w, e :: tl => pop s tl (logged e w (log s))
    | _, [] => s
    end.

  Lemma handle_decide s f : handle s f = perform (decide (reqs s) f) s.
  Proof.
    unfold C12_Conn.handle, decide, perform. destruct (reqs s) as [|e tl]; [reflexivity|].
    destruct (e_corr e) as [c|].
    - destruct (parse_header (e_flex e) f) as [[rc body]|]; [|reflexivity].
      destruct (negb (e_quirk e && negb (c =? 0) && (rc =? 0)) && negb (rc =? c)); [reflexivity|].
      destruct (e_done e); [reflexivity|].
      destruct (decodes (e_api e) body); reflexivity.
    - destruct (e_done e); reflexivity.
  Qed.

  Definition drained (s : state) : Prop := open s = false \/ extract (rbuf s) = NeedMore.

  Lemma handle_fuel b f s n :
    extract b = Frame f (rbuf s) -> (length b < S n)%nat ->
    (length (rbuf (handle s f)) < n)%nat.
  Proof.
    intros Ex Hn. apply extract_frame_len in Ex.
    enough (length (rbuf (handle s f)) <= length (rbuf s))%nat by lia.
    rewrite handle_decide. destruct s as [q rb op cr ns lg]. cbn [reqs].
    unfold perform, close, pop.
    destruct (decide q f) as [c| |w], q as [|e tl], op; cbn; lia.
  Qed.

  Lemma drain_fuel : forall n m s,
    (length (rbuf s) < n)%nat -> (length (rbuf s) < m)%nat -> drain n s = drain m s.
  Proof.
    induction n as [|n IH]; intros m s Hn Hm; [lia|].
    destruct m as [|m]; [lia|].
    cbn [C12_Conn.drain]. destruct (open s) eqn:Ho; [|reflexivity].
    destruct (extract (rbuf s)) as [| |f rest] eqn:Ex; try reflexivity.
    apply IH; eapply handle_fuel; eassumption.
  Qed.

  Lemma drain_closed n s : open s = false -> drain n s = s.
  Proof. intros Ho. destruct n; cbn [C12_Conn.drain]; [reflexivity|]. rewrite Ho. reflexivity. Qed.

  Lemma drain_drained : forall n s, (length (rbuf s) < n)%nat -> drained (drain n s).
  Proof.
    induction n as [|n IH]; intros s Hn; [lia|].
    cbn [C12_Conn.drain]. destruct (open s) eqn:Ho; [|left; exact Ho].
    destruct (extract (rbuf s)) as [| |f rest] eqn:Ex.
    - right. exact Ex.
    - left. apply close_open.
    - apply IH. eapply handle_fuel; eassumption.
  Qed.

  Lemma drain_of_drained n s : drained s -> drain n s = s.
  Proof.
    intros [Ho|Ex]; [apply drain_closed; exact Ho|].
    destruct n; cbn [C12_Conn.drain]; [reflexivity|].
    destruct (open s); [|reflexivity]. rewrite Ex. reflexivity.
  Qed.

  Lemma append_closed c s : open s = false -> append c s = s.
  Proof. unfold append. intros ->. reflexivity. Qed.

  Lemma with_rbuf_self s : with_rbuf s (rbuf s) = s.
  Proof. destruct s; reflexivity. Qed.

  Lemma with_rbuf_twice s a b : with_rbuf (with_rbuf s a) b = with_rbuf s b.
  Proof. reflexivity. Qed.

  Lemma handle_append q rest c cr ns lg f :
    handle (mkS q (rest ++ c) true cr ns lg) f = append c (handle (mkS q rest true cr ns lg) f).
  Proof.
    rewrite !handle_decide. cbn [reqs].
    destruct (decide q f) as [k| |w], q as [|e tl]; reflexivity.
  Qed.

  (* the key lemma: draining, appending and draining again = appending first *)
  Lemma drain_append : forall n s c k m,
    (length (rbuf s) < n)%nat ->
    (length (rbuf (append c (drain n s))) < k)%nat ->
    (length (rbuf (append c s)) < m)%nat ->
    drain k (append c (drain n s)) = drain m (append c s).
  Proof.
    induction n as [|n IH]; intros s c k m Hn Hk Hm; [lia|].
    destruct s as [q rb op cr ns lg].
    cbn [C12_Conn.drain open rbuf reqs corr nsent log] in *.
    destruct op.
    2:{ rewrite append_closed in * by reflexivity. rewrite !drain_closed by reflexivity. reflexivity. }
    destruct (extract rb) as [| |f rest] eqn:Ex.
    - apply drain_fuel; assumption.
    - rewrite append_closed by apply close_open.
      rewrite drain_closed by apply close_open.
      unfold append in Hm |- *. cbn [open rbuf reqs corr nsent log] in Hm |- *.
      destruct m as [|m]; [lia|]. cbn [C12_Conn.drain open rbuf].
      rewrite (extract_bad_app _ c Ex). reflexivity.
    - unfold append at 2. unfold append in Hm. cbn [open rbuf reqs corr nsent log] in Hm |- *.
      destruct m as [|m]; [lia|]. cbn [C12_Conn.drain open rbuf reqs corr nsent log].
      pose proof (extract_frame_app _ _ _ c Ex) as Ex'. rewrite Ex'.
      rewrite handle_append.
      apply IH.
      + eapply handle_fuel; eassumption.
      + exact Hk.
      + rewrite <- handle_append. eapply handle_fuel; eassumption.
  Qed.

  Lemma append_append a b s : append b (append a s) = append (a ++ b) s.
  Proof.
    destruct s as [q rb op cr ns lg]. unfold append. cbn [open rbuf reqs corr nsent log].
    destruct op; cbn [open rbuf reqs corr nsent log]; [|reflexivity].
    rewrite app_assoc. reflexivity.
  Qed.

  Lemma feed_feed a b s : feed b (feed a s) = feed (a ++ b) s.
  Proof.
    unfold C12_Conn.feed. rewrite <- append_append.
    apply drain_append; lia.
  Qed.

  Lemma feed_drained c s : drained (feed c s).
  Proof. unfold C12_Conn.feed. apply drain_drained. lia. Qed.

  Lemma feed_nil s : drained s -> feed [] s = s.
  Proof.
    intros Hd. unfold C12_Conn.feed.
    assert (E : append [] s = s).
    { destruct s as [q rb op cr ns lg]. unfold append. cbn [open rbuf reqs corr nsent log].
      destruct op; [|reflexivity]. rewrite app_nil_r. reflexivity. }
    rewrite E. apply drain_of_drained. exact Hd.
  Qed.

  Theorem chunking_irrelevant : forall cs s,
    drained s -> run s (map Feed cs) = run s [Feed (concat cs)].
  Proof.
    induction cs as [|c cs IH]; intros s Hd.
    - cbn. symmetry. apply feed_nil. exact Hd.
    - cbn [map concat C12_Conn.run fold_left C12_Conn.step].
      change (fold_left step (map Feed cs) (feed c s)) with (run (feed c s) (map Feed cs)).
      rewrite IH by apply feed_drained.
      cbn. apply feed_feed.
  Qed.
End Basics.

Definition delivered (l : logent) : bool :=
  match l_why l with Resp _ | RawResp _ => true | _ => false end.
Definition ids_l (lg : list logent) : list nat := map l_id lg.
(* waiter ids are handed out in order of sending ([nsent] so far): the id of the waiter at the head of the queue *)
Definition q0 (s : state) : nat := (nsent s - length (reqs s))%nat.

(* a response handed to a waiter carries the waiter's correlation id — or, for a
   FindCoordinatorResponse_v0 waiter, the id 0 (the "Kafka 0.8.2 quirk" of _handle_frame) *)
Definition resp_ok (l : logent) : Prop :=
  forall f, l_why l = Resp f ->
  exists flex rc body, parse_header flex f = Some (rc, body) /\
                       (l_corr l = Some rc \/ (l_quirk l = true /\ l_corr l <> Some 0 /\ rc = 0)).

(* log is newest first: delivered ids decrease towards the past *)
Fixpoint dsorted (lg : list logent) : Prop :=
  match lg with
  | [] => True
  | x :: r => (delivered x = true ->
               forall y, In y r -> delivered y = true -> (l_id y < l_id x)%nat) /\ dsorted r
  end.

(* waiters still pending in the queue *)
Definition pend (q : list entry) : list nat := map e_id (filter (fun e => negb (e_done e)) q).

Record Inv (s : state) : Prop := mkInv {
  (* the queue holds the newest waiters, in order *)
  J1 : map e_id (reqs s) = seq (q0 s) (length (reqs s));
  J1b : (length (reqs s) <= nsent s)%nat;
  (* every waiter is resolved, once, or pending in the queue *)
  J3 : Permutation (ids_l (log s) ++ pend (reqs s)) (seq 0 (nsent s));
  (* a waiter that got a response has left the queue; responses went out in request order, each to a waiter
     with the right correlation id *)
  J6 : forall l, In l (log s) -> delivered l = true -> (l_id l < q0 s)%nat;
  J7 : dsorted (log s);
  J8 : forall l, In l (log s) -> resp_ok l;
  (* close() empties the queue and drops the reader's buffer *)
  J9 : open s = false -> reqs s = [] /\ rbuf s = []
}.

Lemma inv_init c : Inv (init c).
Proof.
  constructor; cbn; try (intros; contradiction); try lia; try discriminate;
    try reflexivity; try constructor; try exact I.
Qed.

Lemma inv_nodup s : Inv s -> NoDup (ids_l (log s)).
Proof.
  intros I. eapply NoDup_app_l, Permutation_NoDup; [symmetry; apply (J3 _ I)|apply seq_NoDup].
Qed.

(* the buffer, the reader and the counter matter only through "closed means empty" *)
Lemma inv_frame q rb rb' op op' cr cr' ns lg :
  Inv (mkS q rb op cr ns lg) -> (op' = false -> q = [] /\ rb' = []) ->
  Inv (mkS q rb' op' cr' ns lg).
Proof. intros [ ] H. constructor; assumption. Qed.

Definition pop_ok (e : entry) (w : option why) : Prop :=
  match w with
  | None => e_done e = true
  | Some w => e_done e = false /\ resp_ok (log_of e w)
  end.

Lemma inv_pop e tl rb op cr ns lg w :
  Inv (mkS (e :: tl) rb op cr ns lg) -> pop_ok e w -> Inv (mkS tl rb op cr ns (logged e w lg)).
Proof.
  intros [i1 i1b i3 i6 i7 i8 i9] Hw. unfold q0, pend in *. cbn in *.
  injection i1 as Hid Htl.
  assert (Hnew : forall l, In l (logged e w lg) -> In l lg \/ l_id l = e_id e).
  { destruct w as [w|]; [|left; assumption].
    intros l [<-|Hl]; [right; reflexivity|left; exact Hl]. }
  constructor; unfold q0; cbn.
  - replace (ns - length tl)%nat with (S (ns - S (length tl))) by lia. exact Htl.
  - clear - i1b. lia.
  - destruct w as [w|]; cbn in Hw |- *.
    + destruct Hw as [Hd _]. rewrite Hd in i3. exact (perm_trans (Permutation_middle _ _ _) i3).
    + rewrite Hw in i3. exact i3.
  - intros l Hl Hdl. destruct (Hnew l Hl) as [H|H]; [specialize (i6 l H Hdl)|]; lia.
  - destruct w as [w|]; [|exact i7]. split; [|exact i7].
    intros _ y Hy Hdy. cbn. specialize (i6 y Hy Hdy). lia.
  - intros l Hl. destruct w as [w|]; [destruct Hl as [<-|Hl]; [apply Hw|]|]; apply i8; exact Hl.
  - intros ->. destruct (i9 eq_refl). discriminate.
Qed.

(* the future of a pending entry is resolved without a frame (timeout, cancellation,
   correlation error) *)
Definition mark (id : nat) (e : entry) : entry := if Nat.eqb (e_id e) id then set_done e else e.

Lemma mark_id id e : e_id (mark id e) = e_id e.
Proof. unfold mark. destruct (Nat.eqb (e_id e) id); reflexivity. Qed.

Lemma map_mark_ids id q : map e_id (map (mark id) q) = map e_id q.
Proof. rewrite map_map. apply map_ext. intros e. apply mark_id. Qed.

Lemma mark_other id q : ~ In id (map e_id q) -> map (mark id) q = q.
Proof.
  intros Hn. rewrite <- (map_id q) at 2. apply map_ext_in. intros a Ha. unfold mark.
  destruct (Nat.eqb_spec (e_id a) id) as [<-|_]; [|reflexivity]. destruct Hn. apply in_map, Ha.
Qed.

(* where ids are distinct, marking takes one waiter out of the pending ones *)
Lemma pend_mark e q : NoDup (map e_id q) -> In e q -> e_done e = false ->
  Permutation (e_id e :: pend (map (mark (e_id e)) q)) (pend q).
Proof.
  intros Hn Hin Hd. apply in_split in Hin. destruct Hin as (q1 & q2 & ->).
  rewrite map_app in Hn. apply NoDup_remove_2 in Hn.
  rewrite map_app. cbn [map]. rewrite !mark_other by (intros H; apply Hn, in_or_app; auto).
  unfold mark, pend. rewrite Nat.eqb_refl, !filter_app, !map_app. cbn [filter set_done e_done].
  rewrite Hd. apply Permutation_middle.
Qed.

Lemma inv_mark e q rb op cr ns lg w :
  Inv (mkS q rb op cr ns lg) -> In e q -> e_done e = false ->
  delivered (log_of e w) = false ->
  Inv (mkS (map (mark (e_id e)) q) rb op cr ns (log_of e w :: lg)).
Proof.
  intros [i1 i1b i3 i6 i7 i8 i9] Hin Hnd Hw. unfold q0 in *. cbn in *.
  constructor; unfold q0; cbn; rewrite ?map_length, ?map_mark_ids.
  - exact i1.
  - exact i1b.
  - rewrite <- i3. etransitivity; [apply Permutation_middle|].
    apply Permutation_app_head, pend_mark; [rewrite i1; apply seq_NoDup|exact Hin|exact Hnd].
  - intros l [<-|Hl] Hdl; [rewrite Hw in Hdl; discriminate|apply i6; assumption].
  - split; [|exact i7]. intros Hdl. rewrite Hw in Hdl. discriminate.
  - intros l [<-|Hl]; [|apply i8; exact Hl].
    intros f Hf. unfold delivered in Hw. cbn in Hw, Hf. rewrite Hf in Hw. discriminate.
  - intros Ho. destruct (i9 Ho) as [-> ->]. split; reflexivity.
Qed.

Lemma fold_fail c q : forall lg,
  fold_left (fail_entry c) q lg =
  rev (map (fun e => log_of e (ConnErr c)) (filter (fun e => negb (e_done e)) q)) ++ lg.
Proof.
  induction q as [|e q IH]; intros lg; [reflexivity|].
  cbn [fold_left filter]. rewrite IH. unfold fail_entry.
  destruct (e_done e); cbn [negb]; [reflexivity|].
  cbn [map rev]. rewrite <- app_assoc. reflexivity.
Qed.

Lemma inv_send_open q rb cr cr' ns lg ec api flex quirk :
  Inv (mkS q rb true cr ns lg) ->
  Inv (mkS (q ++ [mkE ns ec api flex quirk false]) rb true cr' (S ns) lg).
Proof.
  intros [i1 i1b i3 i6 i7 i8 i9]. unfold q0 in *. cbn in *.
  constructor; unfold q0; cbn [reqs rbuf open corr nsent log]; rewrite ?app_length; cbn [length];
    rewrite ?Nat.add_1_r.
  - rewrite map_app. cbn [map e_id].
    rewrite seq_S. replace (S ns - S (length q))%nat with (ns - length q)%nat by lia.
    rewrite i1. f_equal. f_equal. lia.
  - lia.
  - unfold pend. rewrite filter_app, map_app, seq_S, app_assoc. apply Permutation_app_tail, i3.
  - intros l Hl Hdl. specialize (i6 l Hl Hdl). lia.
  - exact i7.
  - exact i8.
  - discriminate.
Qed.

Lemma inv_send_closed q rb cr ns lg quirk :
  Inv (mkS q rb false cr ns lg) ->
  Inv (mkS q rb false cr (S ns) (mkL ns None quirk (ConnErr CNoConn) :: lg)).
Proof.
  intros [i1 i1b i3 i6 i7 i8 i9]. unfold q0 in *. cbn in *.
  destruct (i9 eq_refl) as [-> ->]. cbn in *.
  constructor; unfold q0; cbn -[seq].
  - reflexivity.
  - lia.
  - rewrite seq_S, <- i3. apply Permutation_cons_append.
  - intros l [<-|Hl] Hdl; [discriminate|]. specialize (i6 l Hl Hdl). lia.
  - split; [intros; discriminate|exact i7].
  - intros l [<-|Hl]; [intros f Hf; discriminate|apply i8; exact Hl].
  - intros _. split; reflexivity.
Qed.

(* the elementary changes every step is made of: the reader moves its buffer, the head leaves the
   queue, the drained connection shuts, a pending future is resolved without a frame, a raw
   packet is queued, a send on a closed connection fails at once ... *)
Inductive prim : state -> state -> Prop :=
| p_rbuf q rb rb' cr ns lg : prim (mkS q rb true cr ns lg) (mkS q rb' true cr ns lg)
| p_pop e tl rb op cr ns lg w :
    pop_ok e w -> prim (mkS (e :: tl) rb op cr ns lg) (mkS tl rb op cr ns (logged e w lg))
| p_shut rb cr ns lg : prim (mkS [] rb true cr ns lg) (mkS [] [] false cr ns lg)
| p_mark e q rb op cr ns lg w :
    In e q -> e_done e = false -> delivered (log_of e w) = false ->
    prim (mkS q rb op cr ns lg) (mkS (map (mark (e_id e)) q) rb op cr ns (log_of e w :: lg))
| p_raw q rb cr ns lg :
    prim (mkS q rb true cr ns lg) (mkS (q ++ [mkE ns None 0 false false false]) rb true cr (S ns) lg)
| p_noconn q rb cr ns lg quirk :
    prim (mkS q rb false cr ns lg)
         (mkS q rb false cr (S ns) (mkL ns None quirk (ConnErr CNoConn) :: lg)).

(* ... and these two, which call _next_correlation_id: a step makes at most one such change,
   and nothing after it *)
Inductive call : state -> state -> Prop :=
| c_corr q rb cr ns lg : call (mkS q rb true cr ns lg) (mkS q rb true (NextCorr.post cr) ns lg)
| c_send q rb cr ns lg api flex quirk :
    call (mkS q rb true cr ns lg)
         (mkS (q ++ [mkE ns (Some (NextCorr.post cr)) api flex quirk false]) rb true
              (NextCorr.post cr) (S ns) lg).

Section Walk.
  Variable decodes : Z -> bytes -> bool.

  Lemma decide_pop e tl f w : decide decodes (e :: tl) f = APop w -> pop_ok e w.
  Proof.
    unfold decide. destruct (e_corr e) as [c|] eqn:Ec.
    - destruct (parse_header (e_flex e) f) as [[rc body]|] eqn:Eh; [|discriminate].
      destruct (negb (e_quirk e && negb (c =? 0) && (rc =? 0)) && negb (rc =? c)) eqn:Em;
        [discriminate|].
      destruct (e_done e) eqn:Ed; [intros [= <-]; exact Ed|].
      destruct (decodes (e_api e) body); [|discriminate].
      intros [= <-]. split; [exact Ed|].
      intros f' [= <-]. exists (e_flex e), rc, body. split; [exact Eh|]. cbn. rewrite Ec.
      destruct (Z.eq_dec rc c) as [->|Hne]; [left; reflexivity|right].
      assert (e_quirk e = true /\ c <> 0 /\ rc = 0) as (Hq & Hc & Hr) by lia.
      repeat split; [exact Hq| |exact Hr]. intros [= X]. exact (Hc X).
    - destruct (e_done e) eqn:Ed; intros [= <-]; [exact Ed|]. split; [exact Ed|].
      intros f' Hf. discriminate.
  Qed.

  (* [P] before a step, [Q] after it: two predicates, so that a property indexed by the number of calls of
     _next_correlation_id can be walked ([stamped k] to [stamped (S k)]); for an invariant take [Q] = [P] ([step_inv]) *)
  Variables P Q : state -> Prop.
  Hypothesis Hprim : forall s s', prim s s' -> P s -> P s'.
  Hypothesis Hcall : forall s s', call s s' -> P s -> Q s'.
  Hypothesis HPQ : forall s, P s -> Q s.

  Lemma fail_walk e tl rb op cr ns lg w :
    (forall f, w <> Resp f) -> P (mkS (e :: tl) rb op cr ns lg) ->
    P (mkS tl rb op cr ns (if e_done e then lg else log_of e w :: lg)).
  Proof.
    intros Hw H. destruct (e_done e) eqn:Hd.
    - exact (Hprim _ _ (p_pop e tl rb op cr ns lg None Hd) H).
    - refine (Hprim _ _ (p_pop e tl rb op cr ns lg (Some w) (conj Hd _)) H).
      intros f Hf. destruct (Hw f Hf).
  Qed.

  (* close() fails the queued futures from the head on, then drops the reader *)
  Lemma close_walk c s : P s -> P (close c s).
  Proof.
    unfold close. destruct s as [q rb [|] cr ns lg]; cbn [open reqs corr nsent log]; [|trivial].
    revert lg. induction q as [|e q IH]; intros lg H; cbn [fold_left].
    - exact (Hprim _ _ (p_shut rb cr ns lg) H).
    - apply IH, (fail_walk e q rb true cr ns lg (ConnErr c)); [discriminate|exact H].
  Qed.

  Lemma handle_walk s f : open s = true -> P s -> P (handle decodes s f).
  Proof.
    destruct s as [q rb op cr ns lg]. cbn [open]. intros -> H.
    rewrite handle_decide. unfold perform. cbn [reqs rbuf open corr nsent log].
    destruct (decide decodes q f) as [c| |w] eqn:Ed, q as [|e tl];
      try exact H; try (apply close_walk; exact H).
    - (* close skips the head, now done: as if it had left the queue *)
      change (P (close CNone (mkS tl rb true cr ns
                   (if e_done e then lg else log_of e CorrErr :: lg)))).
      apply close_walk, fail_walk; [discriminate|exact H].
    - exact (Hprim _ _ (p_pop e tl rb true cr ns lg w (decide_pop e tl f w Ed)) H).
  Qed.

  Lemma drain_walk : forall n s, P s -> P (drain decodes n s).
  Proof.
    induction n as [|n IH]; intros s H; [exact H|].
    cbn [drain]. destruct (open s) eqn:Ho; [|exact H].
    destruct (extract (rbuf s)) as [| |f rest]; [exact H|apply close_walk; exact H|].
    apply IH, handle_walk; [reflexivity|].
    destruct s as [q rb op cr ns lg]. cbn [open] in Ho. subst op.
    exact (Hprim _ _ (p_rbuf q rb rest cr ns lg) H).
  Qed.

  Lemma finish_walk id w s :
    (forall e, delivered (log_of e w) = false) -> P s -> P (finish_waiter id w s).
  Proof.
    intros Hw H. unfold finish_waiter.
    destruct (find (fun e => Nat.eqb (e_id e) id && negb (e_done e)) (reqs s)) as [e|] eqn:Ef;
      [|exact H].
    apply find_some in Ef. destruct Ef as [Hin Hc]. apply andb_true_iff in Hc.
    destruct Hc as [Hid Hnd]. apply Nat.eqb_eq in Hid. subst id. apply negb_true_iff in Hnd.
    destruct s as [q rb op cr ns lg].
    exact (Hprim _ _ (p_mark e q rb op cr ns lg w Hin Hnd (Hw e)) H).
  Qed.

  Lemma step_walk s ev : P s -> Q (step decodes s ev).
  Proof.
    intros H. destruct ev as [api flex quirk| | |c|id vc|id| | |]; cbn [step].
    - destruct s as [q rb [|] cr ns lg]; [exact (Hcall _ _ (c_send _ _ _ _ _ _ _ _) H)|].
      exact (HPQ _ (Hprim _ _ (p_noconn _ _ _ _ _ _) H)).
    - destruct s as [q rb [|] cr ns lg]; [exact (Hcall _ _ (c_corr _ _ _ _ _) H)|exact (HPQ _ H)].
    - apply HPQ. destruct s as [q rb [|] cr ns lg]; [exact (Hprim _ _ (p_raw _ _ _ _ _) H)|].
      exact (Hprim _ _ (p_noconn _ _ _ _ _ _) H).
    - apply HPQ, drain_walk. unfold append. destruct s as [q rb [|] cr ns lg]; [|exact H].
      exact (Hprim _ _ (p_rbuf _ _ _ _ _ _) H).
    - apply HPQ. destruct (find _ (reqs s)); [|exact H].
      destruct vc; [apply close_walk|]; apply finish_walk; trivial.
    - apply HPQ, finish_walk; trivial.
    - apply HPQ, close_walk, H.
    - apply HPQ, close_walk, H.
    - apply HPQ, close_walk, H.
  Qed.
End Walk.

Lemma step_inv decodes (P : state -> Prop) :
  (forall s s', prim s s' -> P s -> P s') -> (forall s s', call s s' -> P s -> P s') ->
  forall s ev, P s -> P (step decodes s ev).
Proof. intros Hp Hc. apply step_walk; auto. Qed.

Section InvSteps.
  Variable decodes : Z -> bytes -> bool.

  Lemma inv_step s ev : Inv s -> Inv (step decodes s ev).
  Proof.
    apply step_inv; intros s1 s2 Hp I; destruct Hp.
    - apply (inv_frame _ _ _ _ _ _ _ _ _ I). discriminate.
    - apply inv_pop; assumption.
    - apply (inv_frame _ _ _ _ _ _ _ _ _ I). split; reflexivity.
    - apply inv_mark; assumption.
    - apply inv_send_open with (cr := cr). exact I.
    - apply inv_send_closed. exact I.
    - apply (inv_frame _ _ _ _ _ _ _ _ _ I). discriminate.
    - apply inv_send_open with (cr := cr). exact I.
  Qed.

  Lemma run_inv (P : state -> Prop) :
    (forall s ev, P s -> P (step decodes s ev)) -> forall evs s, P s -> P (run decodes s evs).
  Proof.
    intros Hstep. induction evs as [|ev evs IH]; intros s H; [exact H|].
    cbn. apply IH, Hstep, H.
  Qed.

  Lemma inv_reachable c0 evs : Inv (run decodes (init c0) evs).
  Proof. apply (run_inv Inv inv_step), inv_init. Qed.

  (* a reachable state is drained: every complete frame has been handled *)
  Lemma step_drained s ev : drained s -> drained (step decodes s ev).
  Proof.
    intros Hd. destruct ev as [api flex quirk| | |c|id vc|id| | |]; cbn [step];
      try (left; apply close_open).
    - (* a send touches neither [open] nor [rbuf] *)
      destruct s as [q rb [|] cr ns lg]; exact Hd.
    - destruct s as [q rb [|] cr ns lg]; exact Hd.
    - destruct s as [q rb [|] cr ns lg]; exact Hd.
    - apply feed_drained.
    - unfold finish_waiter. destruct (find _ (reqs s)); [|exact Hd].
      destruct vc; [left; apply close_open|exact Hd].
    - unfold finish_waiter. destruct (find _ (reqs s)); exact Hd.
  Qed.

  Lemma drained_reachable c0 evs : drained (run decodes (init c0) evs).
  Proof. apply (run_inv drained step_drained). right. reflexivity. Qed.

  Lemma outcome_some s id : In id (ids_l (log s)) -> outcome s id <> None.
  Proof.
    unfold outcome, ids_l. intros Hin. apply in_map_iff in Hin. destruct Hin as (l & Hid & Hl).
    destruct (find (fun l0 => Nat.eqb (l_id l0) id) (log s)) eqn:Ef; [discriminate|].
    exfalso. pose proof (find_none _ _ Ef l Hl) as Hn. cbn in Hn. rewrite Hid, Nat.eqb_refl in Hn. discriminate.
  Qed.

  Lemma closed_all_resolved s :
    Inv s -> open s = false ->
    reqs s = [] /\ forall id, (id < nsent s)%nat -> outcome s id <> None.
  Proof.
    intros I Ho. destruct (J9 s I Ho) as [Hq Hb]. split; [exact Hq|].
    intros id Hid. apply outcome_some. pose proof (J3 s I) as Hp.
    rewrite Hq, app_nil_r in Hp. apply (Permutation_in _ (Permutation_sym Hp)), in_seq. lia.
  Qed.

  Lemma closing_events s :
    open (step decodes s Eof) = false /\ open (step decodes s Reset) = false /\
    open (step decodes s Close) = false.
  Proof. repeat split; apply close_open. Qed.

  Lemma closed_stays_closed s ev : open s = false -> open (step decodes s ev) = false.
  Proof.
    apply (step_inv decodes (fun s => open s = false)); intros s1 s2 Hp Ho;
      destruct Hp; try discriminate Ho; exact Ho.
  Qed.

  Lemma handle_unsolicited s f : reqs s = [] -> open (handle decodes s f) = false.
  Proof. intros Hq. unfold handle. rewrite Hq. apply close_open. Qed.

  Lemma handle_bad_header s e tl c f :
    reqs s = e :: tl -> e_corr e = Some c -> parse_header (e_flex e) f = None ->
    open (handle decodes s f) = false.
  Proof. intros Hq Hc Hh. unfold handle. rewrite Hq, Hc, Hh. apply close_open. Qed.

  Lemma handle_mismatch s e tl c f rc body :
    open s = true ->
    reqs s = e :: tl -> e_corr e = Some c -> parse_header (e_flex e) f = Some (rc, body) ->
    rc <> c -> (e_quirk e = false \/ c = 0 \/ rc <> 0) ->
    open (handle decodes s f) = false /\
    (e_done e = false -> In (log_of e CorrErr) (log (handle decodes s f))) /\
    (forall l, In l (log (handle decodes s f)) -> In l (log s) \/ delivered l = false).
  Proof.
    intros Ho Hq Hc Hh Hne Hnq. unfold handle. rewrite Hq, Hc, Hh.
    assert (Em : negb (e_quirk e && negb (c =? 0) && (rc =? 0)) && negb (rc =? c) = true) by lia.
    rewrite Em. split; [apply close_open|]. split.
    - intros Hd. unfold close. cbn [open reqs log corr nsent]. rewrite Ho, Hd.
      rewrite fold_fail. apply in_or_app. right. left. reflexivity.
    - intros l. unfold close. cbn [open reqs log corr nsent]. rewrite Ho. rewrite fold_fail.
      intros Hin. apply in_app_or in Hin. destruct Hin as [Hin|Hin].
      + apply in_rev, in_map_iff in Hin. destruct Hin as (e' & <- & _). right. reflexivity.
      + destruct (e_done e); [left; exact Hin|]. destruct Hin as [<-|Hin]; [right; reflexivity|left; exact Hin].
  Qed.

  Lemma close_log c s l :
    In l (log (close c s)) -> In l (log s) \/ (l_why l = ConnErr c /\ exists e, In e (reqs s) /\ e_done e = false /\ l_id l = e_id e).
  Proof.
    unfold close. destruct (open s); [|left; assumption]. cbn [log]. rewrite fold_fail.
    intros Hin. apply in_app_or in Hin. destruct Hin as [Hin|Hin]; [|left; exact Hin].
    apply in_rev, in_map_iff in Hin. destruct Hin as (e & <- & He). apply filter_In in He.
    right. split; [reflexivity|]. exists e. destruct He as [He Hn]. repeat split; [exact He|].
    destruct (e_done e); [discriminate|reflexivity].
  Qed.

  Lemma handle_bad_body s e tl c f rc body :
    reqs s = e :: tl -> e_corr e = Some c -> parse_header (e_flex e) f = Some (rc, body) ->
    rc = c -> e_done e = false -> decodes (e_api e) body = false ->
    open (handle decodes s f) = false.
  Proof.
    intros Hq Hc Hh -> Hd Hb. unfold handle. rewrite Hq, Hc, Hh, Hd, Hb.
    rewrite Z.eqb_refl. cbn [negb]. rewrite andb_false_r. apply close_open.
  Qed.

  Lemma drain_bad_size n s : open s = true -> extract (rbuf s) = BadSize ->
    open (drain decodes (S n) s) = false.
  Proof. intros Ho Ex. cbn [drain]. rewrite Ho, Ex. apply close_open. Qed.

End InvSteps.

Definition corrs (q : list entry) : list Z :=
  flat_map (fun e => match e_corr e with Some c => [c] | None => [] end) q.

Definition suffix {A} (l' l : list A) : Prop := exists p, l = p ++ l'.

Lemma suffix_refl {A} (l : list A) : suffix l l.
Proof. exists []. reflexivity. Qed.

Lemma corrs_tail e tl : suffix (corrs tl) (corrs (e :: tl)).
Proof. unfold corrs. cbn [flat_map]. eexists. reflexivity. Qed.

Lemma corrs_map (g : entry -> entry) q :
  (forall e, e_corr (g e) = e_corr e) -> corrs (map g q) = corrs q.
Proof.
  intros Hg. unfold corrs. induction q as [|e q IH]; [reflexivity|].
  cbn [map flat_map]. rewrite Hg, IH. reflexivity.
Qed.

Lemma corrs_snoc q e :
  corrs (q ++ [e]) = corrs q ++ match e_corr e with Some c => [c] | None => [] end.
Proof. unfold corrs. rewrite flat_map_app. cbn [flat_map]. rewrite app_nil_r. reflexivity. Qed.

Lemma close_corrs c s : corrs (reqs (close c s)) = [] \/ close c s = s.
Proof. unfold close. destruct (open s); [left; reflexivity|right; reflexivity]. Qed.

(* no call of _next_correlation_id: the counter stands still, outstanding ids can only go *)
Lemma prim_corrs s s' :
  prim s s' -> suffix (corrs (reqs s')) (corrs (reqs s)) /\ corr s' = corr s.
Proof.
  intros Hp. split; [|destruct Hp; reflexivity].
  destruct Hp; cbn [reqs]; try apply suffix_refl.
  - apply corrs_tail.
  - rewrite corrs_map; [apply suffix_refl|].
    intros e'. unfold mark. destruct (Nat.eqb (e_id e') (e_id e)); reflexivity.
  - rewrite corrs_snoc, app_nil_r. apply suffix_refl.
Qed.

Section CorrDistinct.
  Variable decodes : Z -> bytes -> bool.

  Lemma corr_range_step s ev :
    0 <= corr s < 2147483648 -> 0 <= corr (step decodes s ev) < 2147483648.
  Proof.
    apply (step_inv decodes (fun s => 0 <= corr s < 2147483648)); intros s1 s2 Hp Hc.
    - destruct (prim_corrs _ _ Hp) as [_ ->]. exact Hc.
    - destruct Hp; apply nextcorr_range.
  Qed.

  Lemma corr_range_run evs s :
    0 <= corr s < 2147483648 -> 0 <= corr (run decodes s evs) < 2147483648.
  Proof. apply (run_inv decodes (fun s => 0 <= corr s < 2147483648)), corr_range_step. Qed.

  (* ghost stamps: n calls of _next_correlation_id so far, at most k; the i-th outstanding id
     came out of the j_i-th call *)
  Definition stamped (c0 : Z) (k : nat) (s : state) : Prop :=
    exists n js, (n <= k)%nat /\ corr s = iter_corr n c0 /\
      corrs (reqs s) = map (fun j => iter_corr j c0) js /\
      StronglySorted lt js /\ Forall (fun j => (0 < j <= n)%nat) js.

  Lemma stamped_step c0 k s ev : stamped c0 k s -> stamped c0 (S k) (step decodes s ev).
  Proof.
    apply (step_walk decodes (stamped c0 k) (stamped c0 (S k))).
    - intros s1 s2 Hp (n & js & Hn & Hc & E & Hs & Hb).
      destruct (prim_corrs _ _ Hp) as [[p Hp'] Hc']. rewrite Hp' in E. symmetry in E.
      apply map_eq_app in E. destruct E as (j1 & j2 & -> & _ & E).
      exists n, j2. repeat split; [exact Hn|congruence|symmetry; exact E| |].
      + exact (ss_app_r _ _ _ Hs).
      + apply Forall_app in Hb. apply Hb.
    - intros s1 s2 Hp (n & js & Hn & Hc & E & Hs & Hb).
      assert (Hb' : Forall (fun j => (0 < j <= S n)%nat) js).
      { eapply Forall_impl; [|exact Hb]. cbn. intros j Hj. lia. }
      destruct Hp; unfold stamped; cbn [reqs corr] in *; rewrite Hc.
      + exists (S n), js. repeat split; [lia|exact E|exact Hs|exact Hb'].
      + (* the id just handed out carries the newest stamp *)
        exists (S n), (js ++ [S n]). repeat split; [lia| | |].
        * rewrite corrs_snoc, map_app, E. reflexivity.
        * apply ss_snoc; [exact Hs|]. eapply Forall_impl; [|exact Hb]. cbn. intros j Hj. lia.
        * apply Forall_app. split; [exact Hb'|]. constructor; [lia|constructor].
    - intros s1 (n & js & Hn & H). exists n, js. split; [lia|exact H].
  Qed.

  Lemma stamped_run c0 evs : forall s k,
    stamped c0 k s -> stamped c0 (k + length evs) (run decodes s evs).
  Proof.
    induction evs as [|ev evs IH]; intros s k H.
    - cbn. rewrite Nat.add_0_r. exact H.
    - cbn [run fold_left length]. rewrite Nat.add_succ_r. apply (IH _ (S k)), stamped_step, H.
  Qed.

  Lemma stamped_nodup c0 k s : Z.of_nat k <= 2147483648 -> stamped c0 k s -> NoDup (corrs (reqs s)).
  Proof.
    intros Hk (n & js & Hn & _ & -> & Hs & Hb).
    induction Hs as [|j js _ IH Hlt]; [constructor|].
    inversion Hb as [|? ? Hj Hb']; subst. cbn [map]. constructor; [|exact (IH Hb')].
    (* a later id equal to this one: its stamp j' satisfies 0 < j < j' <= n <= 2^31 *)
    intros Hin. apply in_map_iff in Hin. destruct Hin as (j' & E & Hj').
    rewrite Forall_forall in Hlt, Hb'. specialize (Hlt j' Hj'). specialize (Hb' j' Hj').
    symmetry in E. revert E. apply iter_corr_distinct_pos; lia.
  Qed.

  (* the counter may start anywhere *)
  Lemma outstanding_distinct_any c0 evs :
    Z.of_nat (length evs) <= 2147483648 -> NoDup (corrs (reqs (run decodes (init c0) evs))).
  Proof.
    intros Hl. apply (stamped_nodup c0 (0 + length evs)); [exact Hl|].
    apply stamped_run. exists O, []. repeat constructor.
  Qed.
End CorrDistinct.

(* exact delivery without the quirk clause: false, see [quirk_witness] *)
Definition exact_delivery_strict : Prop :=
  forall decodes c0 evs l f,
    In l (log (run decodes (init c0) evs)) -> l_why l = Resp f ->
    exists flex rc body, parse_header flex f = Some (rc, body) /\ l_corr l = Some rc.

(* a FindCoordinator v0 request (the quirk flag set), then a reply frame of size 6: correlation id 0, two body bytes *)
Definition quirk_trace : list event :=
  [Send 0 false true; Feed [0; 0; 0; 6;  0; 0; 0; 0;  0; 0]].

Lemma quirk_witness :
  log (run (fun _ _ => true) (init 4) quirk_trace) = [mkL 0 (Some 5) true (Resp [0; 0; 0; 0; 0; 0])]
  /\ open (run (fun _ _ => true) (init 4) quirk_trace) = true.
Proof. vm_compute. split; reflexivity. Qed.

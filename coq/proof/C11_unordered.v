(* C11_unordered.v — TaggedFields dicts in arbitrary iteration order: a value in the wider
   domain [wtu] encodes to the same bytes as its sorted form [vnorm v], which is canonical
   ([wt]); hence decode (encode v ++ r) = (vnorm v, r) (props/C11.v, c11_roundtrip_unordered). *)
From Coq Require Import ZArith List Bool Lia ZifyBool Permutation.
From Verif Require Import Bits Wire C11_roundtrip.
Import ListNotations.
Open Scope Z_scope.

Lemma ins_perm kv l : Permutation (ins_tag kv l) (kv :: l).
Proof.
  induction l as [|y l IH]; cbn [ins_tag]; [reflexivity|].
  destruct (fst kv <=? fst y); [reflexivity|]. rewrite IH. apply perm_swap.
Qed.

Lemma sort_perm l : Permutation (sort_tags l) l.
Proof.
  induction l as [|y l IH]; cbn [sort_tags]; [reflexivity|]. rewrite ins_perm, IH. reflexivity.
Qed.

Lemma sort_length l : length (sort_tags l) = length l.
Proof. apply Permutation_length, sort_perm. Qed.

Lemma ins_wt : forall l prev k b,
  wt_tagged prev l = true -> prev < k < 4294967296 ->
  wf_bytes b = true -> blen b < 4294967296 -> ~ In k (map fst l) ->
  wt_tagged prev (ins_tag (k, b) l) = true.
Proof.
  induction l as [|[k' b'] l IH]; intros prev k b Hl Hk Hb Hlen Hnot.
  - apply wt_tagged_cons. tauto.
  - pose proof Hl as Hl'. apply wt_tagged_cons in Hl' as (Hk' & Hb' & Hlen' & Hrest).
    assert (k <> k') by (intros ->; apply Hnot; left; reflexivity).
    cbn [ins_tag fst]. destruct (k <=? k') eqn:E; apply wt_tagged_cons.
    + repeat split; try assumption; try lia. apply wt_tagged_cons. repeat split; try assumption; lia.
    + repeat split; try assumption; try lia.
      apply IH; try assumption; try lia. intros Hin. apply Hnot. right. exact Hin.
Qed.

Lemma sort_wt : forall l, wtu_tagged l = true -> wt_tagged (-1) (sort_tags l) = true.
Proof.
  induction l as [|[k b] l IH]; intros H; [reflexivity|].
  cbn [wtu_tagged] in H. rewrite !andb_true_iff in H. destruct H as ((((Hk & Hb) & Hblen) & Hnd) & Hrest).
  unfold in_range in Hk.
  cbn [sort_tags]. apply ins_wt; try (apply IH; exact Hrest); try assumption; try lia.
  intros Hin. apply in_map_iff in Hin as ([k' b'] & Hf & Hin).
  apply (Permutation_in _ (sort_perm l)) in Hin.
  cbn in Hf. subst k'. apply negb_true_iff in Hnd.
  assert (existsb (fun kv : Z * list Z => fst kv =? k) l = true); [|congruence].
  apply existsb_exists. exists (k, b'). split; [exact Hin|cbn; lia].
Qed.

Lemma enc_tagged_sort l : wt_tagged (-1) (sort_tags l) = true -> enc_tagged (sort_tags l) = enc_tagged l.
Proof.
  intros H. unfold enc_tagged. rewrite (sort_tags_asc _ _ H). unfold blen. rewrite sort_length. reflexivity.
Qed.

Fixpoint wtu_fields (fs : list ty) (l : list val) : bool :=
  match fs, l with
  | [], [] => true
  | f :: fs', x :: l' => wtu f x && wtu_fields fs' l'
  | _, _ => false
  end.

Lemma wtu_schema fs l : wtu (TSchema fs) (VTup l) = wtu_fields fs l.
Proof. reflexivity. Qed.

Definition norm_ok (t : ty) : Prop :=
  forall v, wtu t v = true -> enc t (vnorm v) = enc t v /\ wt t (vnorm v) = true.

(* for the types whose values contain no dict, [wtu] is [wt] and [vnorm] changes nothing *)
Lemma norm_ok_prim t :
  (forall v, wtu t v = wt t v) -> (forall v, wt t v = true -> vnorm v = v) -> norm_ok t.
Proof. intros Hu Hn v H. rewrite Hu in H. rewrite (Hn v H). split; [reflexivity|exact H]. Qed.

(* an array under any count header [hdr] and length bound [max] *)
Lemma array_norm (hdr : Z -> list Z) max t l :
  norm_ok t -> (blen l <=? max) && forallb (wtu t) l = true ->
  hdr (blen (map vnorm l)) ++ flat_map (enc t) (map vnorm l) = hdr (blen l) ++ flat_map (enc t) l /\
  (blen (map vnorm l) <=? max) && forallb (wt t) (map vnorm l) = true.
Proof.
  intros Ht H. apply andb_prop in H as [Hlen H]. unfold blen in *. rewrite map_length, Hlen.
  clear Hlen. induction l as [|x l IH]; [split; reflexivity|].
  cbn [forallb] in H. apply andb_prop in H as [Hx Hl].
  destruct (Ht x Hx) as [He Hw]. destruct (IH Hl) as [He' Hw'].
  apply app_inv_head in He'.
  cbn [map flat_map forallb]. rewrite He, He', Hw. split; [reflexivity|exact Hw'].
Qed.

Theorem norm_all : forall t, norm_ok t.
Proof.
  induction t using ty_ind';
    try (apply norm_ok_prim; [reflexivity|intros [| | | | |[?|]|] H; try discriminate H; reflexivity]).
  - (* TaggedFields *)
    intros v H. destruct v as [| | | |l| |]; try discriminate H.
    cbn [wtu] in H. apply andb_prop in H as [Hlen Hu].
    pose proof (sort_wt l Hu) as Hs. cbn [vnorm enc wt]. split.
    + apply enc_tagged_sort. exact Hs.
    + unfold blen in *. rewrite sort_length. rewrite Hlen, Hs. reflexivity.
  - (* Array *)
    intros v H. destruct v as [| | | | |[l|]|]; try discriminate H; [|split; reflexivity].
    exact (array_norm (be 4) 2147483647 t l IHt H).
  - (* CompactArray *)
    intros v H. destruct v as [| | | | |[l|]|]; try discriminate H; [|split; reflexivity].
    exact (array_norm (fun n => enc_uvarint (n + 1)) 4294967294 t l IHt H).
  - (* Schema *)
    intros v Hv. destruct v as [| | | | | |l]; try discriminate Hv.
    rewrite wtu_schema in Hv. cbn [vnorm]. rewrite !enc_schema, wt_schema.
    revert l Hv. induction H as [|f fs Hf Hfs IH]; intros l Hv.
    + destruct l; [split; reflexivity|discriminate].
    + destruct l as [|x l]; [discriminate|].
      cbn [wtu_fields] in Hv. apply andb_prop in Hv as [Hx Hl].
      destruct (Hf x Hx) as [He Hw]. destruct (IH l Hl) as [He' Hw'].
      cbn [map enc_fields wt_fields]. rewrite He, He', Hw, Hw'. split; reflexivity.
Qed.

Lemma sort_tags_idem_wt l : wt_tagged (-1) l = true -> sort_tags l = l.
Proof. apply sort_tags_asc. Qed.

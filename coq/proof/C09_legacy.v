(* C09_legacy.v — round trip of the legacy (v0 / v1) builder and reader models. *)
From Coq Require Import ZArith List Bool Lia ZifyBool.
From Verif Require Import Bits C09Bytes C09_Crc C09_Varint C09_RecordV2 C09_Legacy C09_MemRecords C09_Valid
  C09_split C09_v2.
Import ListNotations.
Open Scope Z_scope.

Ltac ul := unfold valid_lrec, valid_lcfg in *; u31.

Lemma lappend_spec c buf r :
  lappend c buf r = (buf, None) \/
  exists m, lappend c buf r = (buf ++ lmsg_of c r, Some m).
Proof.
  unfold lappend. destruct (negb (r_offset r =? 0) && _); [left; reflexivity|right].
  eexists. reflexivity.
Qed.

Lemma lappends_spec c : forall rs buf,
  fst (lappends c buf rs) = buf ++ concat (map (lmsg_of c) (laccepted rs (snd (lappends c buf rs)))).
Proof.
  induction rs as [|r rs IH]; intros buf.
  - cbn. rewrite app_nil_r. reflexivity.
  - cbn [lappends]. destruct (lappend_spec c buf r) as [E|(m & E)]; rewrite E.
    + specialize (IH buf). destruct (lappends c buf rs) as [b2 ms]. cbn [fst snd laccepted] in *. exact IH.
    + specialize (IH (buf ++ lmsg_of c r)). destruct (lappends c (buf ++ lmsg_of c r) rs) as [b2 ms].
      cbn [fst snd laccepted map concat] in *. rewrite IH, <- app_assoc. reflexivity.
Qed.

Lemma laccepted_valid rs : forall ms, Forall valid_lrec rs -> Forall valid_lrec (laccepted rs ms).
Proof.
  induction rs as [|r rs IH]; intros ms H; [constructor|].
  inversion H; subst. destruct ms as [|[m|] ms]; cbn [laccepted]; [constructor| |]; auto.
Qed.

Lemma skipn_blen_app (a r : bytes) n : blen a = n -> skipn (Z.to_nat n) (a ++ r) = r.
Proof. intros <-. unfold blen. rewrite Nat2Z.id. apply skipn_app_exact. Qed.

Lemma msg_layout off len crc (tail : bytes) :
  let m := be 8 off ++ be 4 len ++ be 4 crc ++ tail in
  blen m = 16 + blen tail /\ slice 8 12 m = be 4 len /\ slice 12 16 m = be 4 crc
  /\ skipn 12 m = be 4 crc ++ tail /\ skipn 16 m = tail /\ nth 16 m 0 = nth 0 tail 0.
Proof.
  cbv zeta. split; [|split; [|split; [|split; [|split]]]].
  - rewrite !blen_app, !be_blen. lia.
  - exact (slice_app_mid (be 8 off) (be 4 len) (be 4 crc ++ tail)).
  - rewrite app_assoc. exact (slice_app_mid (be 8 off ++ be 4 len) (be 4 crc) tail).
  - rewrite app_assoc. exact (skipn_app_exact (be 8 off ++ be 4 len) (be 4 crc ++ tail)).
  - rewrite 2 app_assoc. exact (skipn_app_exact ((be 8 off ++ be 4 len) ++ be 4 crc) tail).
  - rewrite 2 app_assoc, app_nth2; rewrite !app_length, !be_length; [reflexivity|lia].
Qed.

Lemma enc_len_bytes_len o : blen (enc_len_bytes o) = 4 + olen o.
Proof. destruct o; cbn [enc_len_bytes olen]; rewrite ?blen_app, be_blen; change (Z.of_nat 4) with 4; lia. Qed.

Lemma msg_tail_len magic attrs ts k v : magic = 0 \/ magic = 1 ->
  blen (msg_tail magic attrs ts k v) = (if magic =? 0 then 10 else 18) + olen k + olen v.
Proof.
  intros [-> | ->]; unfold msg_tail; cbn [Z.eqb]; rewrite ?blen_app, !enc_len_bytes_len, ?be_blen;
    change (blen []) with 0; change (Z.of_nat 1) with 1; change (Z.of_nat 8) with 8; lia.
Qed.

Lemma dec_len_bytes_enc o rest : olen o < TWO31 ->
  dec_len_bytes (enc_len_bytes o ++ rest) = Some (o, rest).
Proof.
  intros H. unfold dec_len_bytes, enc_len_bytes. destruct o as [b|]; cbn [olen] in H.
  - pose proof (blen_nonneg b). rewrite <- app_assoc. rewrite take_s4 by (ul; lia). cbn [bind].
    replace (blen b =? -1) with false by lia. rewrite take_app by reflexivity. reflexivity.
  - rewrite take_s4 by (ul; lia). reflexivity.
Qed.

(* what parse_msg returns for an encoded message: wrapper or inner *)
Definition lmsg_parsed (magic off ts : Z) (k v : obytes) (attrs : Z) : lmsg :=
  mkLMsg off (blen (msg_tail magic attrs ts k v) + 4) (crc32 (msg_tail magic attrs ts k v)) magic attrs
         (if magic =? 0 then None else Some ts) k v.

(* parse_msg on an encoded message, for a reader created with magic pm (the compiled reader
   ignores pm; the Python reader must have been given the message's own magic).  The 64 leaves
   room for the fixed fields of a message (at most 34 bytes) under the int32 Length field. *)
Lemma parse_encode_msg i pm magic off ts k v attrs rest :
  magic = 0 \/ magic = 1 -> match i with Py => pm = magic | Cy => True end ->
  int64 off -> int64 ts -> -128 <= attrs <= 127 -> olen k + olen v < TWO31 - 64 ->
  parse_msg i pm (encode_msg magic off ts k v attrs ++ rest)
  = Some (lmsg_parsed magic off ts k v attrs, rest).
Proof.
  intros Hm Hpm Hoff Hts Hat Hkv.
  pose proof (olen_nonneg k). pose proof (olen_nonneg v).
  pose proof (msg_tail_len magic attrs ts k v Hm) as Hlen.
  unfold parse_msg, encode_msg. cbv zeta. rewrite <- !app_assoc.
  rewrite take_s8 by assumption. cbn [bind].
  rewrite take_s4 by (destruct Hm as [-> | ->]; cbn [Z.eqb] in Hlen; ul; lia). cbn [bind].
  rewrite take_u4 by apply crc32_range. cbn [bind].
  set (tail := msg_tail magic attrs ts k v) in *.
  assert (Htail : tail ++ rest = be 1 magic ++ be 1 attrs ++ (if magic =? 0 then [] else be 8 ts)
                   ++ enc_len_bytes k ++ enc_len_bytes v ++ rest).
  { subst tail. unfold msg_tail. rewrite <- !app_assoc. reflexivity. }
  (* the Python reader finds the rest with the Length field *)
  replace (skipn (Z.to_nat (LOG_OVERHEAD + (blen tail + 4))) _) with rest.
  2:{ rewrite 3 app_assoc. symmetry. apply skipn_blen_app.
      rewrite !blen_app, !be_blen. unfold LOG_OVERHEAD. lia. }
  rewrite Htail.
  rewrite take_s1 by (unfold int8; destruct Hm; lia). cbn [bind].
  rewrite take_s1 by (unfold int8; lia). cbn [bind].
  replace (match i with Py => negb (pm =? 0) | Cy => magic =? 1 end) with (negb (magic =? 0))
    by (destruct i; [subst pm|destruct Hm as [-> | ->]]; reflexivity).
  destruct Hm as [-> | ->]; cbn [Z.eqb negb app bind].
  - do 2 (rewrite dec_len_bytes_enc by (ul; lia); cbn [bind]). destruct i; reflexivity.
  - rewrite take_s8 by assumption. cbn [bind].
    do 2 (rewrite dec_len_bytes_enc by (ul; lia); cbn [bind]). destruct i; reflexivity.
Qed.

Lemma lmsg_ts_int64 c r : valid_lrec r -> int64 (lmsg_ts c r).
Proof. intros (H & _). unfold lmsg_ts. destruct (lc_magic c =? 0); ul; lia. Qed.

Lemma parse_lmsg i c r rest : valid_lcfg c -> valid_lrec r ->
  parse_msg i (lc_magic c) (lmsg_of c r ++ rest)
  = Some (lmsg_parsed (lc_magic c) (r_offset r) (lmsg_ts c r) (r_key r) (r_value r) 0, rest).
Proof.
  intros (Hm & _) Hr. pose proof Hr as (Hts & Hoff & Hkv).
  apply parse_encode_msg;
    [assumption | destruct i; [reflexivity|exact I] | ul; lia | apply lmsg_ts_int64; exact Hr | lia | assumption].
Qed.

Lemma lread_plain i c r : valid_lcfg c -> valid_lrec r ->
  lread no_decompress i (lc_magic c) (lmsg_of c r) = Some [lexpect c r].
Proof.
  intros Hc Hr. pose proof Hc as (Hm & _). pose proof Hr as (Hts & _).
  unfold lread. rewrite <- (app_nil_r (lmsg_of c r)), parse_lmsg by assumption.
  cbn [bind]. unfold lmsg_parsed. cbn [g_attrs g_ts g_offset g_key g_value g_crc].
  change (Z.land 0 CODEC_MASK) with 0. change (Z.land 0 TS_TYPE_MASK) with 0. cbn [Z.eqb negb].
  unfold lexpect, lmsg_crc, lmsg_ts.
  destruct Hm as [-> | ->]; cbn [Z.eqb]; destruct i; cbn [out_ts]; try reflexivity.
  replace (r_ts r =? -1) with false by lia. reflexivity.
Qed.

Lemma lvalidate_msg magic off ts k v attrs :
  lvalidate_crc (encode_msg magic off ts k v attrs) = true.
Proof.
  unfold lvalidate_crc, encode_msg. cbv zeta.
  set (tail := msg_tail magic attrs ts k v).
  destruct (msg_layout off (blen tail + 4) (crc32 tail) tail) as (_ & _ & _ & -> & -> & _).
  rewrite take_u4 by apply crc32_range. apply Z.eqb_refl.
Qed.

Lemma lmsg_wf c r : valid_lcfg c -> valid_lrec r ->
  wf_batch (lmsg_of c r) /\ nth 16 (lmsg_of c r) 0 = lc_magic c.
Proof.
  intros (Hm & _) (Hts & Hoff & Hkv).
  pose proof (olen_nonneg (r_key r)). pose proof (olen_nonneg (r_value r)).
  pose proof (msg_tail_len (lc_magic c) 0 (lmsg_ts c r) (r_key r) (r_value r) Hm) as Hlen.
  unfold lmsg_of, encode_msg. cbv zeta.
  set (tail := msg_tail (lc_magic c) 0 (lmsg_ts c r) (r_key r) (r_value r)) in *.
  assert (Ht : 10 <= blen tail < TWO31 - 40) by (destruct (lc_magic c =? 0); lia).
  destruct (msg_layout (r_offset r) (blen tail + 4) (crc32 tail) tail) as (Hb & Hs & _ & _ & _ & Hn).
  cbv zeta in Hb, Hs, Hn. split; [split|].
  - lia.
  - rewrite Hs, Hb, signed_be_be; [lia | lia |].
    change (256 ^ Z.of_nat 4) with 4294967296. ul. lia.
  - rewrite Hn. subst tail. unfold msg_tail. destruct Hm as [-> | ->]; reflexivity.
Qed.

Lemma split_msgs i c acc : valid_lcfg c -> Forall valid_lrec acc ->
  split i (concat (map (lmsg_of c) acc)) = (map (fun r => (lc_magic c, lmsg_of c r)) acc, Some []).
Proof.
  intros Hc Hacc. rewrite <- (app_nil_r (concat _)), split_concat.
  - f_equal. rewrite map_map. apply map_ext_in. intros r Hin.
    rewrite Forall_forall in Hacc. destruct (lmsg_wf c r Hc (Hacc r Hin)) as (_ & Hn).
    unfold tag. rewrite Hn. f_equal.
    destruct Hc as ([-> | ->] & _); destruct i; reflexivity.
  - apply Forall_map. apply Forall_impl with (2 := Hacc). intros r Hr. apply (lmsg_wf c r Hc Hr).
  - left. cbn. lia.
Qed.

Lemma lmsg_len c r : valid_lcfg c -> blen (lmsg_of c r) = msg_size (lc_magic c) (r_key r) (r_value r).
Proof.
  intros (Hm & _). unfold lmsg_of, encode_msg, msg_size, LOG_OVERHEAD, record_overhead. cbv zeta.
  rewrite !blen_app, !be_blen, msg_tail_len by exact Hm.
  destruct Hm as [-> | ->]; cbn [Z.eqb]; lia.
Qed.

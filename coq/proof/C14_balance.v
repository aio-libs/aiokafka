(* C14 — sticky balance: when the reassignment loop of an accepted StickyCtl run stops
   (`_is_balanced()` holds, or a whole pass finds no trigger), the state is balanced in the
   KIP-54 sense. *)
From Coq Require Import Arith List Bool Lia PeanoNat.
From Verif Require Import C14_Assignors C14_lists C14_Sticky C14_checkers C14_sticky.
Import ListNotations.

Definition owned (st : list (nat * (nat * nat))) (c : nat) : list (nat * nat) :=
  map snd (filter (fun e => Nat.eqb (fst e) c) st).

Lemma owned_length : forall st c, length (owned st c) = load st c.
Proof. intros. unfold owned, load. apply map_length. Qed.

Lemma owned_In : forall st c x, In x (owned st c) <-> In (c, x) st.
Proof.
  intros. unfold owned. rewrite in_map_iff. split.
  - intros [[m y] [E H]]. simpl in E. subst. apply filter_In in H. destruct H as [H E].
    simpl in E. apply Nat.eqb_eq in E. subst. auto.
  - intros H. exists (c, x). split; auto. apply filter_In. split; auto. simpl. apply Nat.eqb_refl.
Qed.

Lemma owned_NoDup : forall st c, NoDup (map snd st) -> NoDup (owned st c).
Proof. intros. unfold owned. apply NoDup_map_filter. auto. Qed.

Lemma potential_parts_length : forall ppt ms c, length (potential_parts ppt ms c) = npot ppt ms c.
Proof. intros. apply (parts_of_length ppt (subs_of ms c)). Qed.

Lemma potential_parts_In : forall ppt ms c x,
  potential_b ppt ms c x = true -> In x (potential_parts ppt ms c).
Proof.
  intros ppt ms c x H. apply potential_b_iff in H.
  change (potential_parts ppt ms c) with (parts_of ppt (subs_of ms c)).
  apply parts_of_In. tauto.
Qed.

(* a consumer that lacks one of its potential partitions holds fewer than all of them *)
Lemma missing_one : forall ppt ms st c x,
  sound ppt ms st -> potential_b ppt ms c x = true -> ~ In (c, x) st ->
  load st c < npot ppt ms c.
Proof.
  intros ppt ms st c x [Hn Hp] Hx Hnot.
  assert (Hnd : NoDup (x :: owned st c)).
  { constructor; [rewrite owned_In; auto | apply owned_NoDup; auto]. }
  assert (Hincl : incl (x :: owned st c) (potential_parts ppt ms c)).
  { intros y [->|Hy]; [apply potential_parts_In; auto|].
    apply owned_In in Hy. apply potential_parts_In. apply (Hp (c, y)); auto. }
  pose proof (NoDup_incl_length Hnd Hincl) as L. simpl in L.
  rewrite owned_length, potential_parts_length in L. lia.
Qed.

(* every potential consumer of a movable partition takes part in the reassignment: it holds
   the partition, or it holds fewer partitions than it could *)
Lemma potential_of_movable_in_scope : forall ppt ms st c x,
  sound ppt ms st -> movable_b ppt ms x = true -> potential_b ppt ms c x = true ->
  In c (scope ppt ms st).
Proof.
  intros ppt ms st c x Hs Hm Hc. unfold scope. apply filter_In. split.
  - apply potential_b_iff in Hc. tauto.
  - unfold can_participate. apply orb_true_iff.
    destruct (existsb _ st) eqn:E; [auto|left].
    apply Nat.ltb_lt, (missing_one ppt ms st c x Hs Hc). intros Hin.
    apply (existsb_false_In _ _ _ _ E) in Hin. simpl in Hin.
    rewrite Nat.eqb_refl, Hm in Hin. discriminate.
Qed.

Lemma two_distinct_length : forall (l : list nat) a b,
  In a l -> In b l -> a <> b -> 2 <= length l.
Proof.
  intros l a b Ha Hb Hne. destruct l as [|x [|y r]]; simpl in *; try tauto; try lia.
Qed.

Theorem end_ok_kip54 : forall ppt ms prev st2 st3,
  ids_nodup ms -> sound ppt ms st2 -> sound ppt ms st3 ->
  end_ok ppt ms prev (scope ppt ms st2) st3 = true ->
  kip54_balanced ms st3.
Proof.
  intros ppt ms prev st2 st3 Hi Hs2 Hs3 He m x o Hin Ho Hsub.
  destruct (Nat.eq_dec m o) as [->|Hne]; [lia|].
  pose proof Hs3 as [Hn3 Hp3].
  pose proof (Hp3 _ Hin) as Hm. simpl in Hm.
  assert (Hop : potential_b ppt ms o x = true).
  { apply potential_b_spec; auto. apply potential_b_spec in Hm; tauto. }
  assert (Hmov : movable_b ppt ms x = true).
  { apply Nat.leb_le, (two_distinct_length _ m o); auto; apply potentials_In; auto. }
  assert (Hmsc : In m (scope ppt ms st2)) by (eapply potential_of_movable_in_scope; eauto).
  assert (Hosc : In o (scope ppt ms st2)) by (eapply potential_of_movable_in_scope; eauto).
  unfold end_ok in He. apply orb_true_iff in He. destruct He as [He|He].
  - (* _is_balanced() *)
    unfold is_balanced_b in He. apply orb_true_iff in He. destruct He as [He|He].
    + pose proof (proj1 (pairs_within_one_iff _ _) He m o Hmsc Hosc). lia.
    + rewrite forallb_forall in He. specialize (He o Hosc).
      apply orb_true_iff in He. destruct He as [He|He].
      * apply Nat.eqb_eq in He.
        assert (Hnot : ~ In (o, x) st3).
        { intros Hox. apply Hne. pose proof (NoDup_map_eq _ _ snd st3 _ _ Hn3 Hin Hox eq_refl) as E.
          inversion E; auto. }
        pose proof (missing_one _ _ _ _ _ Hs3 Hop Hnot). lia.
      * rewrite forallb_forall in He. specialize (He x (potential_parts_In _ _ _ _ Hop)).
        unfold owns_b in He. rewrite (owner_In_nodup _ _ _ Hn3 Hin) in He.
        apply orb_true_iff in He. destruct He as [He|He].
        -- apply Nat.eqb_eq in He. congruence.
        -- apply negb_true_iff, Nat.ltb_ge in He. lia.
  - (* a whole pass without a trigger *)
    unfold no_trigger_b in He. rewrite forallb_forall in He. specialize (He (m, x) Hin).
    simpl in He. rewrite Hmov in He. simpl in He.
    apply andb_true_iff in He. destruct He as [_ He]. apply negb_true_iff in He.
    apply (existsb_false_In _ _ _ o) in He; [|apply potentials_In; auto].
    apply Nat.ltb_ge in He. lia.
Qed.

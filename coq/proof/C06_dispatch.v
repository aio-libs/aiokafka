(* For the statements of props/C06.v about the dispatch chains translated from group_coordinator.py
   (coq/gen/*Dispatch.v): the lifting of a computed [forallb] to a statement about every code of a list,
   and the classification of JoinGroup errors by the hand model C06_JoinScript ([code_of], [model_class]).
   The codes (aiokafka/errors.py): 14 GroupLoadInProgress, 15 GroupCoordinatorNotAvailable,
   16 NotCoordinatorForGroup, 22 IllegalGeneration, 25 UnknownMemberId, 27 RebalanceInProgress,
   79 MemberIdRequired; fatal for a JoinGroup: 23 InconsistentGroupProtocol, 24 InvalidGroupId,
   26 InvalidSessionTimeout, 30 GroupAuthorizationFailed. *)
From Coq Require Import ZArith List Bool.
From Verif Require Import DispatchActs C06_Codes C06_JoinScript
  HeartbeatDispatch JoinRetryDispatch JoinDispatch SyncDispatch CommitDispatch.
Import ListNotations.
Open Scope Z_scope.

Lemma forall_in_by_compute (P : Z -> bool) (l : list Z) :
  forallb P l = true -> forall c, In c l -> P c = true.
Proof. intros H c Hc. rewrite forallb_forall in H. exact (H c Hc). Qed.

(* the codes that stand for each error of the hand model, and the class the translated chains must
   give them ([c06_join_model_agrees_with_source]) *)
Definition code_of (e : jerr) : list Z :=
  match e with
  | MemberIdRequired _ => [79]
  | LoadInProgress => [14]
  | UnknownMember => [25]
  | CoordinatorGone => [15; 16]
  | FatalJoin => kafka_join_fatal_codes
  | UnexpectedJoin => [42; 22; 27; -1]     (* representatives of "no branch names it" *)
  end.

Definition model_class (e : jerr) : jclass :=
  match e with
  | MemberIdRequired _ => JRetryWithId
  | FatalJoin | UnexpectedJoin => JRaised
  | _ => JRetryLater
  end.

Lemma join_model_outcome : forall asg mid e,
  match e with MemberIdRequired _ => True | _ =>
    snd (join_script asg mid [JoinErr e]) = match model_class e with JRaised => Raised | _ => RetryLater end
  end.
Proof. intros asg mid e. destruct e; simpl; auto. Qed.

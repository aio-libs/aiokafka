(* C07_misc.v — fencing, the progress measure of an ending transaction, the witness trace of the client
   obligation that the faithful model (= the code as it is) does NOT guarantee, and two recorded traces that
   satisfy all of them. *)
From Coq Require Import ZArith List Bool Arith Lia.
From Verif Require Import Imp TxnTable C16_TxnApi C07_Txn C07_client C07_env C07_atomic.
Import ListNotations.
Local Open Scope nat_scope.

Definition applied_by (e : event) : option nat :=
  match e with
  | RAddParts i _ VApplied | RAddOffs i VApplied | RToc i _ VApplied | REndTxn i _ VApplied
  | RProduce i _ VApplied => Some i
  | _ => None
  end.

(* a broker applies a request of an instance only if the instance holds the coordinator's epoch *)
Lemma applied_needs_epoch s e s' i :
  step s e = Some s' -> applied_by e = Some i ->
  exists c, nth_error (clients s) i = Some c /\ cep c = eep (genv s).
Proof.
  intros H A. destruct (step_inv _ _ _ H) as [en' ES | j c c' en' o Hc _ CS]; [destruct ES; discriminate|].
  destruct CS; try destruct No; try destruct Rf; try discriminate A; injection A as <-; eauto.
Qed.

Definition started_with (s : gstate) (i ep : nat) : Prop :=
  exists c, nth_error (clients s) i = Some c /\ cst c <> UNINIT /\ cep c = ep.

Lemma cstep_started i en c e c' en' o :
  cstep i en c e c' en' o -> cst c <> UNINIT -> cst c' <> UNINIT /\ cep c' = cep c.
Proof. intros CS N. destruct CS; simpl; split; auto; try discriminate; contradiction. Qed.

Lemma cstep_epoch i en c e c' en' o : cstep i en c e c' en' o -> eep en <= eep en'.
Proof. intros CS. destruct CS; simpl; try lia. destruct Es as [(_ & ->)|(_ & ->)]; simpl; lia. Qed.

(* the coordinator's epoch never decreases; an instance that has started keeps its epoch *)
Lemma step_epochs s e s' :
  step s e = Some s' ->
  eep (genv s) <= eep (genv s') /\
  forall i ep, started_with s i ep -> started_with s' i ep.
Proof.
  intros H. destruct (step_inv _ _ _ H) as [en' ES | j c c' en' o Hc _ CS].
  - split; [|auto]. destruct ES; simpl; try lia. subst ep. destruct (einit (genv s)); lia.
  - split; [exact (cstep_epoch _ _ _ _ _ _ _ CS)|]. intros i ep (d & A & B & C).
    destruct (cl_upd_ex s j c c' en' (fin j c o (ended s)) Hc i d A) as (d' & A' & [(-> & -> & ->)|(N & ->)]).
    + destruct (cstep_started _ _ _ _ _ _ _ CS B) as (K1 & K2). exists c'. split; [exact A'|]. split; congruence.
    + exists d. auto.
Qed.

(* what still has to happen before EndTxn can be sent *)
Definition mu (c : client) : nat :=
  length (pend_parts c) + length (concat (pend_offs c)) + (if grp c then 0 else length (pend_offs c))
  + length (queue c) + length (inflight c).

Lemma filter_len_le {A} (f : A -> bool) l : length (filter f l) <= length l.
Proof. induction l as [|y l IH]; simpl; [lia|]. destruct (f y); simpl; lia. Qed.

Lemma remn_length_lt x l : In x l -> length (remn x l) < length l.
Proof.
  induction l as [|y l IH]; intros H; [destruct H|]. unfold remn in *. simpl.
  destruct (Nat.eqb x y) eqn:E; simpl.
  - assert (K : length (filter (fun y0 => negb (Nat.eqb x y0)) l) <= length l) by apply filter_len_le.
    lia.
  - destruct H as [H|H]; [subst; rewrite Nat.eqb_refl in E; discriminate|]. specialize (IH H). lia.
Qed.

Lemma take_bid_length n q x r : take_bid n q = Some (x, r) -> length q = S (length r).
Proof.
  revert x r. induction q as [|b q IH]; intros x r H; simpl in H; [discriminate|].
  destruct (Nat.eqb (bid b) n).
  - inversion H; subst. reflexivity.
  - destruct (take_bid n q) as [[x0 r0]|] eqn:T; [|discriminate]. inversion H; subst. simpl.
    rewrite (IH _ _ eq_refl). reflexivity.
Qed.

(* every acknowledgement the client receives strictly decreases the measure.  (Nothing is stated for the events of
   the sender that move a batch: SDrain and SRetry leave mu as it is, SFail of a batch the sender holds lowers it
   and sets lostb.) *)
Lemma mu_part_added s i p s' c : step s (CPartAdded i p) = Some s' -> get s i = Some c ->
  exists c', nth_error (clients s') i = Some c' /\ mu c' < mu c.
Proof.
  intros H Hg. destruct (get_some _ _ _ Hg) as (Hn & _).
  destruct (step_inv _ _ _ H) as [? ES | j c0 c' en' o Hc _ CS]; [inversion ES|]. cstep_cases CS.
  rewrite Hn in Hc. injection Hc as <-. eexists. split; [simpl; eapply nth_set_nth_eq; eauto|].
  unfold mu. simpl. pose proof (remn_length_lt _ _ Ip). lia.
Qed.

Lemma mu_group_added s i s' c : step s (CGroupAdded i) = Some s' -> get s i = Some c ->
  grp c = false -> pend_offs c <> [] ->
  exists c', nth_error (clients s') i = Some c' /\ mu c' < mu c.
Proof.
  intros H Hg Gr Ne. destruct (get_some _ _ _ Hg) as (Hn & _).
  destruct (step_inv _ _ _ H) as [? ES | j c0 c' en' o Hc _ CS]; [inversion ES|]. cstep_cases CS.
  rewrite Hn in Hc. injection Hc as <-. eexists. split; [simpl; eapply nth_set_nth_eq; eauto|].
  unfold mu. simpl. rewrite Gr. destruct (pend_offs c); [congruence|]. simpl. lia.
Qed.

Lemma mu_off_committed s i x s' c : step s (COffCommitted i x) = Some s' -> get s i = Some c ->
  exists c', nth_error (clients s') i = Some c' /\ mu c' < mu c.
Proof.
  intros H Hg. destruct (get_some _ _ _ Hg) as (Hn & _).
  destruct (step_inv _ _ _ H) as [? ES | j c0 c' en' o Hc _ CS]; [inversion ES|]. cstep_cases CS.
  rewrite Hn in Hc. injection Hc as <-. eexists. split; [simpl; eapply nth_set_nth_eq; eauto|].
  unfold mu. simpl. rewrite Po. simpl. pose proof (remn_length_lt _ _ Ix) as K. rewrite app_length.
  destruct (is_niln (remn x items)) eqn:N.
  - destruct (grp c); simpl; lia.
  - simpl. rewrite app_length. destruct (grp c); simpl; lia.
Qed.

Lemma mu_ok s i b s' c : step s (SOk i b) = Some s' -> get s i = Some c -> cst c <> FATAL ->
  exists c', nth_error (clients s') i = Some c' /\ mu c' < mu c.
Proof.
  intros H Hg Nf. destruct (get_some _ _ _ Hg) as (Hn & _).
  destruct (step_inv _ _ _ H) as [? ES | j c0 c' en' o Hc _ CS]; [inversion ES|]. cstep_cases CS.
  all: rewrite Hn in Hc; injection Hc as <-.
  - eexists. split; [simpl; eapply nth_set_nth_eq; eauto|].
    unfold mu. simpl. rewrite (take_bid_length _ _ _ _ Tk). lia.
  - contradiction.
Qed.

(* a refused or lost request changes nothing but the slot: it is simply picked again *)
Lemma mu_not_applied s e s' i c :
  step s e = Some s' -> get s i = Some c ->
  (exists ps, e = RAddParts i ps VNot) \/ e = RAddOffs i VNot \/ (exists it, e = RToc i it VNot) \/
  (exists cm, e = REndTxn i cm VNot) \/ e = TDone i ->
  exists c', nth_error (clients s') i = Some c' /\ mu c' = mu c /\ cst c' = cst c /\
             next_kind c' = next_kind c.
Proof.
  intros H Hg E. destruct (get_some _ _ _ Hg) as (Hn & _).
  destruct (step_inv _ _ _ H) as [en' ES | j c0 c' en' o Hc _ CS].
  - destruct ES; destruct E as [(? & E)|[E|[(? & E)|[(? & E)|E]]]]; discriminate E.
  - assert (K : j = i /\ exists x, c' = set_slot c0 x).
    { destruct E as [(ps & ->)|[-> |[(it & ->)|[(cm & ->)| ->]]]]; cstep_cases CS; eauto. }
    destruct K as (-> & x & ->). rewrite Hn in Hc. injection Hc as <-.
    eexists. split; [simpl; eapply nth_set_nth_eq; eauto|]. repeat split.
Qed.

(* measure zero in COMMITTING / ABORTING: the sender picks EndTxn *)
Lemma mu_zero_picks_end c :
  cst c = COMMITTING \/ cst c = ABORTING -> pend_parts c = [] -> pend_offs c = [] -> next_kind c = Some KEnd.
Proof. intros S P O. unfold next_kind. rewrite P, O. simpl. destruct S as [S|S]; rewrite S; reflexivity. Qed.

(* and its acknowledgement ends the transaction the way the application asked *)
Lemma end_acknowledged_completes s i c :
  get s i = Some c -> cst c = COMMITTING \/ cst c = ABORTING ->
  pend_parts c = [] -> pend_offs c = [] -> queue c = [] -> inflight c = [] ->
  slot c = Some (KEnd, SApplied) ->
  exists s' c', step s (AComplete i) = Some s' /\ nth_error (clients s') i = Some c' /\ cst c' = READY /\
    ended s' = ended s ++ [(tagof i c, match cst c with COMMITTING => OCommitted | _ => OAborted end, accepted c)].
Proof.
  intros Hg S P O Q I Sl. destruct (get_some _ _ _ Hg) as (Hn & _).
  unfold step. rewrite Hg, P, O, Q, I. unfold slot_is. rewrite Sl. simpl.
  destruct S as [S|S]; rewrite S; simpl.
  all: eexists; eexists; split; [reflexivity|]; split; [simpl; eapply nth_set_nth_eq; eauto|]; split; reflexivity.
Qed.

(* The traces below are recorded from the real producer under the simulator; harness/c07.py re-records them on
   every run. *)
(* a batch fails non-retriably (TOPIC_AUTHORIZATION_FAILED in the Produce response); commit_transaction() returns
   nevertheless *)
Definition w_commit_without_batch : list event :=
  [EInitOk; AStart 0 0; ABegin 0; AAccept 0 1 0 0 true; TPick 0 (Some KParts); ACommitting 0;
   RAddParts 0 [0] VApplied; CPartAdded 0 0; TDone 0; TPick 0 (Some KEnd); SDrain 0 0; SFail 0 0;
   REndTxn 0 true VApplied; EMarkers; AComplete 0; TDone 0].

Lemma witness_commit_without_batch :
  exists s, run (g0 1) w_commit_without_batch = Some s /\
            ended s = [((0, 1), OCommitted, [(1, 0)])] /\
            rc_view_t (log_of 0 (glog (genv s))) = [] /\
            est (genv s) = EDone true /\
            first_ob (g0 1) w_commit_without_batch 0 = Some (12, 2).
Proof. eexists. split; [vm_compute; reflexivity|]. repeat split. Qed.

(* the repaired paths: GROUP_AUTHORIZATION_FAILED on AddOffsetsToTxn -> abort sends EndTxn(ABORT), the aborted
   record stays invisible and the next transaction commits alone *)
Definition t_abort_after_abortable_error : list event :=
  [EInitOk; AStart 0 0; ABegin 0; AAccept 0 1 0 0 true; TPick 0 (Some KParts); AOffsets 0 [7];
   RAddParts 0 [0] VApplied; CPartAdded 0 0; TDone 0; TPick 0 (Some KOffs); SDrain 0 0; RAddOffs 0 VNot;
   RProduce 0 0 VApplied; SOk 0 0; AError 0; TDone 0; AAborting 0; TPick 0 (Some KEnd);
   REndTxn 0 false VApplied; EMarkers; AComplete 0; TDone 0;
   ABegin 0; AAccept 0 2 0 1 true; TPick 0 (Some KParts); ACommitting 0; RAddParts 0 [0] VApplied;
   CPartAdded 0 0; TDone 0; TPick 0 (Some KEnd); SDrain 0 1; RProduce 0 1 VApplied; SOk 0 1;
   REndTxn 0 true VApplied; EMarkers; AComplete 0; TDone 0].

(* TOPIC_AUTHORIZATION_FAILED on AddPartitionsToTxn -> the waiting batch is failed, nothing is produced *)
Definition t_unauthorized_partition : list event :=
  [EInitOk; AStart 0 0; ABegin 0; AAccept 0 1 1 0 true; TPick 0 (Some KParts); ACommitting 0;
   RAddParts 0 [1] VNot; SFail 0 0; AError 0; TDone 0; AAborting 0; TPick 0 (Some KEnd); AComplete 0; TDone 0].

Definition ended_tags (s : gstate) : list (tag * outcome) := map (fun x => fst x) (ended s).

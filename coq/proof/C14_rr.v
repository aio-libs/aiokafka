(* C14 — round-robin assignor: termination of the skip loop, validity, and balance under
   identical subscriptions of [roundrobin_assign]. *)
From Coq Require Import Arith List Bool Lia PeanoNat Permutation.
From Verif Require Import C14_Assignors C14_lists C14_range.
Import ListNotations.

(* number of k < N with (pos + k) mod M = i *)
Fixpoint cyc_count (M N pos i : nat) : nat :=
  match N with
  | 0 => 0
  | S N' => (if pos =? i then 1 else 0) + cyc_count M N' (S pos mod M) i
  end.

(* steps forward from pos to the next occurrence of i on the cycle of length M *)
Definition cyc_dist (M pos i : nat) : nat := if pos <=? i then i - pos else M + i - pos.

Lemma cyc_dist_lt : forall M pos i, pos < M -> i < M -> cyc_dist M pos i < M.
Proof. intros. unfold cyc_dist. destruct (Nat.leb_spec pos i); lia. Qed.

Lemma cyc_dist_step : forall M pos i, pos < M -> i < M ->
  if pos =? i then cyc_dist M pos i = 0 /\ cyc_dist M (S pos mod M) i = M - 1
  else cyc_dist M pos i = S (cyc_dist M (S pos mod M) i).
Proof.
  intros M pos i Hp Hi. unfold cyc_dist.
  destruct (Nat.eqb_spec (S pos) M) as [E|E].
  - rewrite E, Nat.mod_same by lia.
    destruct (Nat.eqb_spec pos i), (Nat.leb_spec pos i); simpl; lia.
  - rewrite Nat.mod_small by lia.
    destruct (Nat.eqb_spec pos i), (Nat.leb_spec pos i), (Nat.leb_spec (S pos) i); lia.
Qed.

(* i is hit at steps dist, dist + M, ...: the ceiling of (N - dist) / M times among N steps *)
Lemma cyc_count_closed : forall M N pos i, pos < M -> i < M ->
  cyc_count M N pos i = (N + M - 1 - cyc_dist M pos i) / M.
Proof.
  induction N as [|N IH]; intros pos i Hp Hi.
  - simpl. symmetry. apply Nat.div_small. pose proof (cyc_dist_lt M pos i Hp Hi). lia.
  - assert (Hp' : S pos mod M < M) by (apply Nat.mod_upper_bound; lia).
    simpl cyc_count. rewrite IH by auto.
    pose proof (cyc_dist_step M pos i Hp Hi) as D. pose proof (cyc_dist_lt M _ i Hp' Hi) as L.
    destruct (pos =? i).
    + destruct D as [-> ->].
      replace (N + M - 1 - (M - 1)) with N by lia.
      replace (S N + M - 1 - 0) with (N + 1 * M) by lia.
      rewrite Nat.div_add by lia. lia.
    + rewrite D. simpl. f_equal. lia.
Qed.

Lemma cyc_count_within_one : forall M N pos i j, pos < M -> i < M -> j < M ->
  cyc_count M N pos i <= cyc_count M N pos j + 1.
Proof.
  intros M N pos i j Hp Hi Hj. rewrite !cyc_count_closed by auto.
  pose proof (cyc_dist_lt M pos i Hp Hi). pose proof (cyc_dist_lt M pos j Hp Hj).
  rewrite <- (Nat.div_add _ 1 M) by lia.
  apply Nat.div_le_mono; lia.
Qed.

Lemma load_cons : forall (x : nat * (nat * nat)) tr m,
  load (x :: tr) m = (if fst x =? m then 1 else 0) + load tr m.
Proof. intros. unfold load. simpl. destruct (fst x =? m); reflexivity. Qed.

Section RR.
Variable ms : members_t.
Let sorted := sort (map fst ms).
Let M := length sorted.

Lemma sorted_In : forall m, In m sorted <-> In m (map fst ms).
Proof. intros. apply sort_In. Qed.

Lemma succ_mod_lt : forall pos, pos < M -> S pos mod M < M.
Proof. intros. apply Nat.mod_upper_bound. lia. Qed.

(* the skip loop: if the member j turns ahead subscribes to t, the loop stops within j + 1
   turns, at a subscriber of t *)
Lemma rr_next_spec : forall fuel pos t j, pos < M -> j < fuel ->
  In t (subs_of ms (nth ((pos + j) mod M) sorted 0)) ->
  exists m pos', rr_next ms sorted fuel pos t = Some (m, pos') /\
                 In m sorted /\ In t (subs_of ms m) /\ pos' < M.
Proof.
  induction fuel as [|f IH]; simpl; intros pos t j Hpos Hj Hin; [lia|].
  destruct (mem_nat t (subs_of ms (nth pos sorted 0))) eqn:E.
  - exists (nth pos sorted 0), (S pos mod M). split; [reflexivity|].
    split; [apply nth_In, Hpos|]. split; [apply mem_nat_In, E | apply succ_mod_lt, Hpos].
  - destruct j as [|j'].
    + rewrite Nat.add_0_r, Nat.mod_small in Hin by auto.
      apply mem_nat_In in Hin. congruence.
    + apply (IH _ _ j'); auto using succ_mod_lt; [lia|].
      rewrite Nat.add_mod_idemp_l by lia.
      replace (S pos + j') with (pos + S j') by lia. exact Hin.
Qed.

(* one full turn is enough whenever some member subscribes to the topic *)
Lemma rr_next_turn : forall pos t m, pos < M -> In m sorted -> In t (subs_of ms m) ->
  exists m' pos', rr_next ms sorted M pos t = Some (m', pos') /\
                  In m' sorted /\ In t (subs_of ms m') /\ pos' < M.
Proof.
  intros pos t m Hpos Hm Hin.
  destruct (In_nth _ _ 0 Hm) as [q [Hq Hnth]]. fold M in Hq.
  destruct (Nat.le_gt_cases pos q).
  - apply (rr_next_spec M pos t (q - pos)); auto; try lia.
    replace (pos + (q - pos)) with q by lia. rewrite Nat.mod_small by auto. rewrite Hnth; auto.
  - apply (rr_next_spec M pos t (M + q - pos)); auto; try lia.
    replace (pos + (M + q - pos)) with (q + 1 * M) by lia.
    rewrite Nat.mod_add by lia. rewrite Nat.mod_small by auto. rewrite Hnth; auto.
Qed.

(* [parts = [] \/ pos < M]: with no member there is no position, and no partition either *)
Lemma rr_loop_spec : forall parts pos, parts = [] \/ pos < M ->
  (forall x, In x parts -> exists m, In m sorted /\ In (fst x) (subs_of ms m)) ->
  exists tr, rr_loop ms sorted parts pos = Some tr /\ map snd tr = parts /\
             forall m x, In (m, x) tr -> In m sorted /\ In (fst x) (subs_of ms m).
Proof.
  induction parts as [|[t p] r IH]; simpl; intros pos Hpos Hall.
  - exists []. split; [reflexivity|]. split; [reflexivity|]. intros m x [].
  - destruct Hpos as [|Hpos]; [discriminate|]. fold M.
    destruct (Hall (t, p) (or_introl eq_refl)) as (m0 & Hm0 & Hin0).
    destruct (rr_next_turn pos t m0 Hpos Hm0 Hin0) as (m & pos' & -> & Hm & Hs & Hp').
    destruct (IH pos' (or_intror Hp') (fun x Hx => Hall x (or_intror Hx))) as (tr & -> & Hsnd & Htr).
    exists ((m, (t, p)) :: tr). split; [reflexivity|]. split; [simpl; f_equal; exact Hsnd|].
    intros m' x [[= <- <-]|Hx]; [auto | apply Htr, Hx].
Qed.

Lemma rr_next_hit : forall fuel pos t, fuel > 0 ->
  mem_nat t (subs_of ms (nth pos sorted 0)) = true ->
  rr_next ms sorted fuel pos t = Some (nth pos sorted 0, S pos mod M).
Proof. intros. destruct fuel; [lia|]. simpl. rewrite H0. reflexivity. Qed.

(* when every member subscribes to every topic the loop hands out the partitions in turn *)
Lemma rr_loop_identical : forall parts pos tr, NoDup sorted ->
  (forall m x, In m sorted -> In x parts -> mem_nat (fst x) (subs_of ms m) = true) ->
  parts = [] \/ pos < M -> rr_loop ms sorted parts pos = Some tr ->
  forall i, i < M -> load tr (nth i sorted 0) = cyc_count M (length parts) pos i.
Proof.
  induction parts as [|[t p] r IH]; intros pos tr Hn Hall Hpos H i Hi.
  - simpl in H. inversion H; subst. reflexivity.
  - destruct Hpos as [|Hpos]; [discriminate|]. simpl in H. fold M in H.
    rewrite rr_next_hit in H; [|lia|apply (Hall _ (t, p)); [apply nth_In, Hpos|left; reflexivity]].
    destruct (rr_loop ms sorted r (S pos mod M)) as [tr'|] eqn:E; [|discriminate].
    inversion H; subst. rewrite load_cons. simpl fst. simpl length. simpl cyc_count.
    rewrite (IH (S pos mod M) tr'); auto using succ_mod_lt.
    + f_equal. destruct (Nat.eqb_spec pos i) as [->|Hne].
      * rewrite Nat.eqb_refl. reflexivity.
      * destruct (Nat.eqb_spec (nth pos sorted 0) (nth i sorted 0)) as [E'|]; auto.
        exfalso. apply Hne. eapply NoDup_nth; eauto.
    + intros m x Hm Hx. apply Hall; simpl; auto.
Qed.

End RR.

Lemma rr_partitions_In : forall ppt ms x,
  In x (rr_partitions ppt ms) <-> assignable ppt ms x.
Proof.
  intros. change (rr_partitions ppt ms) with (parts_of ppt (all_topics ms)).
  rewrite parts_of_In, all_topics_In. unfold assignable. tauto.
Qed.

Lemma rr_partitions_NoDup : forall ppt ms, NoDup (rr_partitions ppt ms).
Proof. intros. apply (parts_of_NoDup ppt (all_topics ms)), all_topics_NoDup. Qed.

Lemma rr_all_subscribed : forall ppt ms, ids_nodup ms ->
  forall y, In y (rr_partitions ppt ms) ->
            exists m, In m (sort (map fst ms)) /\ In (fst y) (subs_of ms m).
Proof.
  intros ppt ms Hi y Hy. apply rr_partitions_In in Hy. destruct Hy as [_ [m Hs]].
  exists m. split; [eapply sort_In, subscribed_member; eauto | apply subscribed_subs_of; auto].
Qed.

Lemma rr_pos0 : forall ppt ms, rr_partitions ppt ms = [] \/ 0 < length (sort (map fst ms)).
Proof.
  intros. destruct (rr_partitions ppt ms) as [|x r] eqn:E; [auto|right].
  assert (Hx : assignable ppt ms x) by (apply rr_partitions_In; rewrite E; simpl; auto).
  destruct Hx as [_ [m Hs]]. apply subscribed_member, (proj2 (sort_In _ _)) in Hs.
  destruct (sort (map fst ms)); [destruct Hs | simpl; lia].
Qed.

Theorem rr_terminates : forall ppt ms, ids_nodup ms -> rr_triples ppt ms <> None.
Proof.
  intros ppt ms Hi. unfold rr_triples.
  destruct (rr_loop_spec ms _ 0 (rr_pos0 ppt ms) (rr_all_subscribed ppt ms Hi)) as (tr & -> & _).
  discriminate.
Qed.

Lemma rr_triples_valid : forall ppt ms tr, ids_nodup ms ->
  rr_triples ppt ms = Some tr -> valid ppt ms tr.
Proof.
  intros ppt ms tr Hi H. unfold rr_triples in H.
  destruct (rr_loop_spec ms _ 0 (rr_pos0 ppt ms) (rr_all_subscribed ppt ms Hi)) as (tr' & E & Hsnd & Hall).
  rewrite E in H. injection H as ->.
  assert (Ha : forall m x, In (m, x) tr -> assignable ppt ms x).
  { intros m x Hin. apply rr_partitions_In. rewrite <- Hsnd. apply (in_map snd _ _ Hin). }
  split; [|split].
  - rewrite Hsnd. apply rr_partitions_NoDup.
  - intros m x Hin. split; [apply subs_of_subscribed, (Hall _ _ Hin) | apply (Ha _ _ Hin)].
  - intros x Hx. apply rr_partitions_In in Hx. rewrite <- Hsnd in Hx.
    apply in_map_iff in Hx. destruct Hx as [[m x'] [<- Hin]]. eauto.
Qed.

Lemma load_topic_In : forall (tr : list (nat * (nat * nat))) m t p,
  In p (load_topic tr m t) <-> In (m, (t, p)) tr.
Proof.
  intros. unfold load_topic. rewrite in_map_iff. split.
  - intros [[m' [t' p']] [E H]]. simpl in E. subst. apply filter_In in H. destruct H as [H E].
    simpl in E. apply andb_true_iff in E. destruct E as [E1 E2].
    apply Nat.eqb_eq in E1, E2. subst. auto.
  - intros H. exists (m, (t, p)). split; auto. apply filter_In. split; auto.
    simpl. rewrite !Nat.eqb_refl. reflexivity.
Qed.

Lemma load_topic_NoDup : forall (tr : list (nat * (nat * nat))) m t,
  NoDup (map snd tr) -> NoDup (load_topic tr m t).
Proof.
  induction tr as [|[m' [t' p']] tr IH]; intros m t Hn; [constructor|].
  inversion Hn; subst. specialize (IH m t H2). unfold load_topic in *. simpl.
  destruct (Nat.eqb_spec m' m), (Nat.eqb_spec t' t); simpl; auto. subst.
  constructor; auto. fold (load_topic tr m t). rewrite load_topic_In.
  intros Hin. apply H1, (in_map snd _ _ Hin).
Qed.

Definition regroup_P (tr : triples) (m : member) (t : topic) : option (list nat) :=
  match load_topic tr m t with [] => None | ps => Some ps end.

Definition regroup (topics : list topic) (ms : members_t) (tr : triples) : assignment :=
  map (fun e => (fst e, group_member topics tr (fst e))) ms.

Lemma regroup_grid : forall topics ms tr,
  regroup topics ms tr = grid_assign (regroup_P tr) topics ms.
Proof.
  intros. unfold regroup, grid_assign. apply map_ext. intros e. f_equal.
  unfold group_member, grid_member. apply flat_map_ext. intros t. unfold regroup_P, load_topic.
  destruct (map _ (filter _ tr)); reflexivity.
Qed.

Lemma regroup_P_some : forall tr m t ps, regroup_P tr m t = Some ps -> ps = load_topic tr m t.
Proof.
  unfold regroup_P. intros tr m t ps. destruct (load_topic tr m t); [discriminate|].
  intros [= <-]. reflexivity.
Qed.

(* regrouping triples into the returned dict loses and adds nothing *)
Lemma regroup_In : forall topics ms tr m x,
  (forall m' x', In (m', x') tr -> In m' (map fst ms) /\ In (fst x') topics) ->
  (In (m, x) (triples_of (regroup topics ms tr)) <-> In (m, x) tr).
Proof.
  intros topics ms tr m [t p] Hdom. rewrite regroup_grid, grid_In. simpl. split.
  - intros [_ [_ [ps [HP Hp]]]]. apply regroup_P_some in HP as ->. apply load_topic_In, Hp.
  - intros H. destruct (Hdom _ _ H) as [Hm Ht]. simpl in Ht. split; auto. split; auto.
    unfold regroup_P. pose proof (proj2 (load_topic_In tr m t p) H) as Hl.
    destruct (load_topic tr m t) eqn:E; [destruct Hl|]. eauto.
Qed.

Lemma regroup_NoDup : forall topics ms tr, ids_nodup ms -> NoDup topics ->
  NoDup (map snd tr) -> NoDup (map snd (triples_of (regroup topics ms tr))).
Proof.
  intros topics ms tr Hi Ht Hn. rewrite regroup_grid. apply grid_NoDup; auto.
  - intros m t ps H. apply regroup_P_some in H as ->. apply load_topic_NoDup, Hn.
  - intros m m' t ps ps' p Hne H H' Hp Hp'.
    apply regroup_P_some in H as ->, H' as ->. apply load_topic_In in Hp, Hp'.
    apply Hne. pose proof (NoDup_map_eq _ _ snd tr _ _ Hn Hp Hp' eq_refl) as E.
    inversion E; auto.
Qed.

Lemma valid_dom : forall ppt ms tr, valid ppt ms tr ->
  forall m x, In (m, x) tr -> In m (map fst ms) /\ In (fst x) (all_topics ms).
Proof.
  intros ppt ms tr [_ [Hs _]] m x Hin. destruct (Hs _ _ Hin) as [Hsub _].
  split; [eapply subscribed_member; eauto | apply all_topics_In; eauto].
Qed.

Lemma regroup_valid : forall ppt ms tr, ids_nodup ms ->
  valid ppt ms tr -> valid ppt ms (triples_of (regroup (all_topics ms) ms tr)).
Proof.
  intros ppt ms tr Hi Hv. pose proof (valid_dom _ _ _ Hv) as Hdom. destruct Hv as [Hn [Hs Hc]].
  split; [|split].
  - apply regroup_NoDup; auto using all_topics_NoDup.
  - intros m x Hin. apply regroup_In in Hin; auto.
  - intros x Hx. destruct (Hc x Hx) as [m Hm]. exists m. apply regroup_In; auto.
Qed.

(* all members subscribe to the same topics (as sets) *)
Definition identical_subs (ms : members_t) : Prop :=
  forall m1 s1 m2 s2 t, In (m1, s1) ms -> In (m2, s2) ms -> In t s1 -> In t s2.

Lemma identical_subscribed : forall ms m0 m t, identical_subs ms ->
  subscribed ms m0 t -> In m (map fst ms) -> subscribed ms m t.
Proof.
  intros ms m0 m t Hid (s0 & Hin0 & Ht0) Hm. apply in_map_iff in Hm as ([m' s] & <- & Hin).
  exists s. split; [exact Hin|]. eapply Hid; eauto.
Qed.

Lemma load_perm : forall (a b : list (nat * (nat * nat))) m, Permutation a b -> load a m = load b m.
Proof.
  intros a b m H. induction H; auto.
  - rewrite !load_cons. lia.
  - rewrite !load_cons. lia.
  - lia.
Qed.

Theorem rr_balanced : forall ppt ms out, ids_nodup ms -> identical_subs ms ->
  roundrobin_assign ppt ms = Some out -> within_one ms (triples_of out).
Proof.
  intros ppt ms out Hi Hid H. unfold roundrobin_assign in H.
  destruct (rr_triples ppt ms) as [tr|] eqn:E; [|discriminate].
  inversion H; subst. clear H.
  pose proof (rr_triples_valid _ _ _ Hi E) as Hv. pose proof (valid_dom _ _ _ Hv) as Hdom.
  destruct Hv as [Hn _].
  fold (regroup (all_topics ms) ms tr).
  (* the returned dict holds the triples of the loop, regrouped: the loads are those of [tr] *)
  assert (Hperm : Permutation (triples_of (regroup (all_topics ms) ms tr)) tr).
  { apply NoDup_Permutation.
    - eapply NoDup_map_inv. apply regroup_NoDup; auto using all_topics_NoDup.
    - eapply NoDup_map_inv; eauto.
    - intros [m x]. apply regroup_In; auto. }
  intros m1 m2 H1 H2. rewrite !(load_perm _ _ _ Hperm).
  apply (proj2 (sort_In _ _)) in H1, H2.
  destruct (In_nth _ _ 0 H1) as [i1 [Hi1 E1]]. destruct (In_nth _ _ 0 H2) as [i2 [Hi2 E2]].
  assert (Hall : forall m x, In m (sort (map fst ms)) -> In x (rr_partitions ppt ms) ->
                             mem_nat (fst x) (subs_of ms m) = true).
  { intros m x Hm Hx. apply rr_partitions_In in Hx as [_ [m' Hs]].
    apply mem_nat_In, subscribed_subs_of; auto.
    apply (identical_subscribed ms m' m _ Hid Hs), sort_In, Hm. }
  pose proof (rr_loop_identical ms _ 0 tr (sort_NoDup _ Hi) Hall (rr_pos0 ppt ms) E) as L.
  rewrite <- E1, <- E2, (L i1 Hi1), (L i2 Hi2).
  apply cyc_count_within_one; auto. lia.
Qed.

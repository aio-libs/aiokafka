(* C09_split.v — the MemoryRecords splitter on concatenations of well-formed batches. *)
From Coq Require Import ZArith List Bool Lia ZifyBool.
From Verif Require Import C09Bytes C09_RecordV2 C09_Legacy C09_MemRecords.
Import ListNotations.
Open Scope Z_scope.

(* a batch as far as the splitter is concerned: at least the 26 bytes of the smallest
   message, and a Length field (bytes 8..12) that says "everything after these 12 bytes" *)
Definition wf_batch (b : bytes) : Prop :=
  26 <= blen b /\ signed_be (slice 8 12 b) = blen b - 12.

(* what may follow the last complete batch: fewer than 12 bytes, or the beginning of a
   batch whose declared length (>= 14) exceeds what is there *)
Definition partial_ok (p : bytes) : Prop :=
  blen p < 12 \/ (14 <= signed_be (slice 8 12 p) /\ blen p < 12 + signed_be (slice 8 12 p)).

Definition tag (i : impl) (b : bytes) : Z * bytes := (magic_seen i (nth 16 b 0), b).

Lemma slice_app_l a b (x y : bytes) : 0 <= a -> b <= blen x -> slice a b (x ++ y) = slice a b x.
Proof.
  intros Ha Hb. unfold slice, blen in *.
  rewrite skipn_app. rewrite firstn_app.
  replace (Z.to_nat (b - a) - List.length (skipn (Z.to_nat a) x))%nat with 0%nat.
  - cbn [firstn]. apply app_nil_r.
  - rewrite skipn_length. lia.
Qed.

Lemma split_fuel_concat i p : partial_ok p -> forall bs fuel,
  Forall wf_batch bs -> (List.length bs < fuel)%nat ->
  split_fuel fuel i (concat bs ++ p) = (map (tag i) bs, Some p).
Proof.
  intros Hp. induction bs as [|b bs IH]; intros fuel Hwf Hfuel.
  - destruct fuel as [|fuel]; [cbn in Hfuel; lia|]. cbn [concat app map split_fuel].
    destruct Hp as [Hp|[Hp1 Hp2]].
    + replace (blen p <? 12) with true by lia. reflexivity.
    + destruct (blen p <? 12); [reflexivity|].
      replace (signed_be (slice 8 12 p) <? 14) with false by lia.
      replace (blen p <? 12 + signed_be (slice 8 12 p)) with true by lia.
      destruct i; reflexivity.
  - destruct fuel as [|fuel]; [cbn in Hfuel; lia|].
    inversion Hwf as [|b' bs' [Hb1 Hb2] Hbs]; subst.
    cbn [concat]. rewrite <- app_assoc. cbn [split_fuel].
    set (rest := concat bs ++ p).
    pose proof (blen_nonneg rest) as Hrest.
    rewrite blen_app.
    replace (blen b + blen rest <? 12) with false by lia.
    rewrite slice_app_l by lia. rewrite Hb2.
    replace (blen b - 12 <? 14) with false by lia.
    replace (12 + (blen b - 12)) with (blen b) by lia.
    replace (blen b + blen rest <? blen b) with false by lia.
    replace (blen b <? MIN_SLICE) with false by (unfold MIN_SLICE; lia).
    replace (Z.to_nat (blen b)) with (List.length b) by (unfold blen; lia).
    rewrite firstn_app_exact, skipn_app_exact.
    subst rest. rewrite IH by (cbn [List.length] in Hfuel; try assumption; lia).
    cbn [map]. unfold tag at 2. destruct i; reflexivity.
Qed.

Lemma concat_length_ge (bs : list bytes) : Forall wf_batch bs ->
  (List.length bs <= List.length (concat bs))%nat.
Proof.
  induction 1 as [|b bs [Hb _] _ IH]; [cbn; lia|].
  cbn [concat List.length]. rewrite app_length. unfold blen in Hb. lia.
Qed.

Theorem split_concat i bs p : Forall wf_batch bs -> partial_ok p ->
  split i (concat bs ++ p) = (map (tag i) bs, Some p).
Proof.
  intros Hwf Hp. unfold split. apply split_fuel_concat; try assumption.
  rewrite app_length. pose proof (concat_length_ge bs Hwf). lia.
Qed.

Lemma slice_firstn a b k (x : bytes) : 0 <= a -> b <= k -> slice a b (firstn (Z.to_nat k) x) = slice a b x.
Proof.
  intros Ha Hb.
  rewrite <- (firstn_skipn (Z.to_nat k) x) at 2.
  destruct (Z_lt_le_dec (blen x) k) as [Hlt|Hle].
  - rewrite firstn_all2 by (unfold blen in Hlt; lia).
    rewrite skipn_all2 by (unfold blen in Hlt; lia). rewrite app_nil_r. reflexivity.
  - symmetry. apply slice_app_l; [exact Ha|].
    unfold blen in *. rewrite firstn_length. lia.
Qed.

(* a v2 batch followed by a v1 message: the buffer that [split_fixed], which reads the magic
   byte at a fixed offset of the whole buffer, tags wrongly (props/C09.v) *)

Definition witness_v2 : bytes :=
  build_records no_compress Py (mkCfg 2 0 false (-1) (-1) (-1) 16384) [mkRec 0 1000 (Some [107]) (Some [118]) []].
Definition witness_v1 : bytes := encode_msg 1 0 1001 (Some [107; 50]) (Some [118; 50]) 0.

(* the faithful splitters do split this buffer correctly (instance of split_concat) *)
Example split_witness_ok : forall i,
  split i (concat [witness_v2; witness_v1] ++ []) = ([tag i witness_v2; tag i witness_v1], Some []).
Proof. intros i. destruct i; vm_compute; reflexivity. Qed.

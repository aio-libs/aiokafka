(* C13_proof.v — invariants and clauses of the start-position model (model/C13_StartPos.v) *)
From Coq Require Import ZArith List Bool Lia ZifyBool.
From Verif Require Import C13_StartPos.
Import ListNotations.
Open Scope Z_scope.

Lemma strat_eqb_eq a b : strat_eqb a b = true <-> a = b.
Proof. destruct a, b; simpl; split; intros H; try reflexivity; try discriminate. Qed.

Lemma oz_eqb_eq a b : oz_eqb a b = true <-> a = b.
Proof.
  destruct a, b; simpl; split; intros H; try reflexivity; try discriminate; [f_equal; lia|inversion H; lia].
Qed.

Lemma errk_eqb_eq a b : errk_eqb a b = true <-> a = b.
Proof. destruct a, b; simpl; split; intros H; try reflexivity; try discriminate. Qed.

Lemma remove_strat_incl x l : forall r, remove_strat x l = Some r -> In x l /\ (forall y, In y r -> In y l).
Proof.
  induction l as [|z l IH]; simpl; intros r H; [discriminate|].
  destruct (strat_eqb x z) eqn:E.
  - apply strat_eqb_eq in E. subst z. inversion H; subst. split; [left; reflexivity|intros; right; assumption].
  - destruct (remove_strat x l) as [r'|]; [|discriminate]. inversion H; subst.
    destruct (IH r' eq_refl) as (I1 & I2). split; [right; exact I1|].
    intros y [->|I]; [left; reflexivity|right; apply I2; exact I].
Qed.

Lemma remove_strat_in x l : In x l -> exists r, remove_strat x l = Some r.
Proof.
  induction l as [|z l IH]; simpl; intros I; [contradiction|].
  destruct (strat_eqb x z) eqn:E; [eexists; reflexivity|].
  destruct I as [->|I]; [rewrite (proj2 (strat_eqb_eq x x) eq_refl) in E; discriminate|].
  destruct (IH I) as (r & ->). eexists; reflexivity.
Qed.

Lemma run_app c t1 : forall s t2,
  run c s (t1 ++ t2) = match run c s t1 with Some s1 => run c s1 t2 | None => None end.
Proof.
  induction t1 as [|e t1 IH]; simpl; intros s t2; [reflexivity|].
  destruct (step c s e); [apply IH|reflexivity].
Qed.

Lemma run_keeps c (P : st -> Prop) (ok : ev -> bool) :
  (forall s e s', P s -> ok e = true -> step c s e = Some s' -> P s') ->
  forall tr s s', P s -> forallb ok tr = true -> run c s tr = Some s' -> P s'.
Proof.
  intros St. induction tr as [|e tr IH]; cbn; intros s s' H Ok R.
  - injection R as <-. exact H.
  - apply andb_true_iff in Ok. destruct (step c s e) as [s1|] eqn:E1; [|discriminate].
    apply (IH s1); [apply (St s e); tauto|tauto|exact R].
Qed.

(* c13_start: the invariant of traces without user repositioning.  [first_ok], [origin_ok] and [err_ok] are written out in
   the statement of c13_start (props/C13.v), which reads them off the invariant by conversion. *)

(* a reset for strategy x is justified: x is the policy's, and nothing is committed or ([oo], the field [oor]) an
   out-of-range report was accepted *)
Definition reset_ok (c : cfg) (oo : bool) (x : strat) : Prop :=
  policy_strat (c_policy c) = Some x /\ (eff_committed c = None \/ oo = true).

Definition origin_ok (c : cfg) (oo : bool) (og : origin) : Prop :=
  match og with
  | OCommitted cc => eff_committed c = Some cc
  | OReset x _ _ _ => reset_ok c oo x
  | OSeek _ => False
  end.

(* the first valid position precedes every out-of-range report: a reset that leads to it has nothing committed *)
Definition first_ok (c : cfg) (f : Z * origin) : Prop :=
  match snd f with
  | OCommitted cc => eff_committed c = Some cc /\ fst f = cc
  | OReset x l h ls => eff_committed c = None /\ policy_strat (c_policy c) = Some x /\
                       fst f = answer (c_iso c) x l h ls
  | OSeek _ => False
  end.

Definition err_ok (c : cfg) (k : errk) : Prop :=
  match k with
  | NoOffset => c_policy c = PNone /\ eff_committed c = None
  | OutOfRangeErr => c_policy c = PNone
  end.

Record Inv (c : cfg) (s : st) : Prop := {
  i_rst : forall x, rst s = Some x -> reset_ok c (oor s) x;
  i_lo : forall x, In x (lo s) -> reset_ok c (oor s) x;
  i_res : forall v, In v (resolved s) -> v = eff_committed c;
  i_first : forall f, first s = Some f -> first_ok c f;
  i_origin : forall og, origin_ s = Some og -> origin_ok c (oor s) og;
  i_err : forall k, err s = Some k -> err_ok c k;
  i_surf : forall k, In k (surfaced s) -> err_ok c k;
  (* an out-of-range report is accepted against a position only, and every position leaves a [first] behind: a new
     [first] arises while [oor s = false] only, where [reset_ok] says that nothing is committed ([set_pos_inv]) *)
  i_oor : oor s = true -> first s <> None;
  i_pos : forall p, pos s = Some p -> first s <> None
}.

Lemma fresh_inv c : Inv c fresh.
Proof. constructor; simpl; intros; try discriminate; try contradiction. Qed.

Lemma set_pos_inv c s p og nw res lk los :
  Inv c s -> (forall v, In v res -> In v (resolved s)) -> (forall x, In x los -> In x (lo s)) ->
  origin_ok c (oor s) og -> (oor s = false -> first_ok c (p, og)) -> Inv c (set_pos s p og nw res lk los).
Proof.
  intros [Irst Ilo Ires Ifirst Iorigin Ierr Isurf Ioor Ipos] Hres Hlo Hog Hf.
  unfold set_pos. constructor; cbn; auto; try (intros; discriminate).
  - intros f Hf'. destruct (first s) as [f0|] eqn:EF; [apply Ifirst; congruence|].
    injection Hf' as <-. apply Hf. destruct (oor s); [exfalso; apply Ioor; reflexivity|reflexivity].
  - intros og' [= <-]. exact Hog.
  - intros _. destruct (first s); discriminate.
  - intros p' _. destruct (first s); discriminate.
Qed.

Lemma step_inv c s e s' :
  Inv c s -> user_move e = false -> step c s e = Some s' -> Inv c s'.
Proof.
  intros I UM. pose proof I as [Irst Ilo Ires Ifirst Iorigin Ierr Isurf Ioor Ipos].
  destruct e as [ | | | |v|v|x|x l h ls|x|x|o|p|o|x|k|p]; cbn [step user_move] in *; try discriminate.
  - (* Assigned *) intros [= <-]. apply fresh_inv.
  - (* CommittedReq *)
    destruct (pos s) eqn:EP; [discriminate|]. destruct (rst s) eqn:ER; [discriminate|].
    destruct (err s) eqn:EE; [discriminate|]. intros [= <-].
    constructor; cbn; auto; try (intros; discriminate).
  - (* LookupSent *)
    destruct (c_group c && negb (looking s) && negb (Nat.eqb (nwait s) 0)); [|discriminate].
    intros [= <-]. constructor; cbn; auto.
  - (* LookupErr *)
    destruct (looking s); [|discriminate]. intros [= <-]. constructor; cbn; auto.
  - (* LookupOk *)
    destruct (negb (Nat.eqb (nwait s) 0) && oz_eqb v (eff_committed c) &&
              (if c_group c then looking s else true)) eqn:E; [|discriminate].
    rewrite !andb_true_iff in E. destruct E as ((_ & E) & _). apply oz_eqb_eq in E.
    intros [= <-]. constructor; cbn; auto.
    intros w Iw. apply in_app_or in Iw. destruct Iw as [Iw|Iw]; [auto|]. apply repeat_spec in Iw. congruence.
  - (* CommittedResp *)
    destruct (resolved s) as [|v' rest] eqn:ERS; [discriminate|].
    destruct (oz_eqb v v') eqn:EV; [|discriminate]. apply oz_eqb_eq in EV. subst v'.
    assert (v = eff_committed c) as EC by (apply Ires; left; reflexivity).
    assert (forall w, In w rest -> w = eff_committed c) as Ires' by (intros; apply Ires; right; assumption).
    destruct (is_some (pos s) || is_some (rst s)) eqn:EB.
    { intros [= <-]. constructor; cbn; auto. }
    apply orb_false_iff in EB. destruct EB as (EP & ER).
    destruct (pos s) eqn:EPs; [discriminate|]. destruct (rst s) eqn:ERs; [discriminate|].
    destruct v as [off|].
    + intros [= <-]. apply set_pos_inv; auto.
      * rewrite ERS. intros w Iw. right. exact Iw.
      * cbn. congruence.
      * intros _. split; [congruence|reflexivity].
    + destruct (policy_strat (c_policy c)) as [ps|] eqn:EPS.
      * intros [= <-]. constructor; cbn; auto; try (intros; discriminate).
        intros x [= <-]. split; [exact EPS|left; congruence].
      * destruct (err s) eqn:EE; [discriminate|]. intros [= <-].
        constructor; cbn; auto; try (intros; discriminate).
        intros k [= <-]. split; [|congruence].
        destruct (c_policy c); try discriminate EPS. reflexivity.
  - (* ListOffsetsSent *)
    destruct (pos s) eqn:EP; [discriminate|]. destruct (rst s) as [y|] eqn:ER; [|discriminate].
    destruct (strat_eqb x y) eqn:E; [|discriminate]. apply strat_eqb_eq in E. subst y.
    intros [= <-]. constructor; cbn; auto.
    intros z [<-|Iz]; [apply Irst; reflexivity|auto].
  - (* ListOffsetsResp *)
    destruct (remove_strat x (lo s)) as [los|] eqn:ERm; [|discriminate].
    destruct (remove_strat_incl _ _ _ ERm) as (I1 & I2).
    destruct (rst s) as [y|] eqn:ER; [|discriminate].
    destruct (strat_eqb x y) eqn:ES; [|discriminate]. apply strat_eqb_eq in ES. subst y.
    intros [= <-]. destruct (Irst _ eq_refl) as (RP & RC). apply set_pos_inv; auto.
    + split; assumption.
    + intros Eo. split; [|split; [exact RP|reflexivity]]. destruct RC; congruence.
  - (* ListOffsetsIgnored *)
    destruct (remove_strat x (lo s)) as [los|] eqn:ERm; [|discriminate].
    destruct (remove_strat_incl _ _ _ ERm) as (I1 & I2).
    destruct (match rst s with None => true | Some y => negb (strat_eqb x y) end); [|discriminate].
    intros [= <-]. constructor; cbn; auto.
  - (* ListOffsetsErr *)
    destruct (remove_strat x (lo s)) as [los|] eqn:ERm; [|discriminate].
    destruct (remove_strat_incl _ _ _ ERm) as (I1 & I2).
    intros [= <-]. constructor; cbn; auto.
  - (* OutOfRange *)
    destruct (oz_eqb (pos s) (Some o)) eqn:EO; [|intros [= <-]; exact I].
    apply oz_eqb_eq in EO. pose proof (Ipos _ EO) as FN.
    destruct (policy_strat (c_policy c)) as [ps|] eqn:EPS.
    + intros [= <-]. constructor; cbn; auto; try (intros; discriminate).
      * intros x [= <-]. split; [exact EPS|right; reflexivity].
      * intros x Ix. destruct (Ilo _ Ix) as (A & _). split; [exact A|right; reflexivity].
    + destruct (err s) eqn:EE; [discriminate|]. intros [= <-].
      assert (c_policy c = PNone) as PN by (destruct (c_policy c); try discriminate EPS; reflexivity).
      constructor; cbn; auto.
      * intros x Hx. destruct (Irst _ Hx) as (A & _). split; [exact A|right; reflexivity].
      * intros x Ix. destruct (Ilo _ Ix) as (A & _). split; [exact A|right; reflexivity].
      * intros og Hog. specialize (Iorigin _ Hog). destruct og; cbn in *; auto.
        destruct Iorigin as (A & _). split; [exact A|right; reflexivity].
      * intros k [= <-]. exact PN.
  - (* Consumed *)
    destruct (pos s) as [q|] eqn:EP; [|discriminate]. destruct (q <=? p); [|discriminate].
    intros [= <-]. constructor; cbn; auto. intros p0 _. apply (Ipos q eq_refl).
  - (* ErrRaised *)
    destruct (err s) as [k'|] eqn:EE; [|discriminate]. destruct (errk_eqb k k') eqn:EK; [|discriminate].
    apply errk_eqb_eq in EK. subst k'. intros [= <-]. constructor; cbn; auto; try (intros; discriminate).
    intros j Ij. apply in_app_or in Ij. destruct Ij as [Ij|[<-|[]]]; [auto|apply Ierr; reflexivity].
  - (* Position *)
    destruct (oz_eqb (pos s) (Some p)); [|discriminate]. intros [= <-]. exact I.
Qed.

Lemma run_inv c tr s : run c fresh tr = Some s -> forallb (fun e => negb (user_move e)) tr = true -> Inv c s.
Proof.
  intros H CL. revert H. apply (run_keeps c (Inv c) (fun e => negb (user_move e))); [|apply fresh_inv|exact CL].
  intros s0 e s1 I0 Ok. apply step_inv; [exact I0|]. apply negb_true_iff, Ok.
Qed.

(* what a quiet event does to the position, the pending reset and the origin: nothing; or the committed
   lookup resumes where neither a position nor a reset is there; or the pending reset is applied *)
Lemma quiet_frame c s e s' : quiet_ev e = true -> step c s e = Some s' ->
  (pos s' = pos s /\ rst s' = rst s /\ origin_ s' = origin_ s) \/
  (pos s = None /\ rst s = None) \/
  (exists x l h ls, rst s = Some x /\ pos s' = Some (answer (c_iso c) x l h ls) /\ rst s' = None /\
                    origin_ s' = Some (OReset x l h ls)).
Proof.
  intros Q. destruct e as [ | | | |v|v|x|x l h ls|x|x|o|p|o|x|k|p]; cbn [step quiet_ev] in *; try discriminate.
  - destruct (pos s), (rst s), (err s); try discriminate. intros [= <-]. left. repeat split.
  - destruct (c_group c && negb (looking s) && negb (Nat.eqb (nwait s) 0)); [|discriminate].
    intros [= <-]. left. repeat split.
  - destruct (looking s); [|discriminate]. intros [= <-]. left. repeat split.
  - destruct (negb (Nat.eqb (nwait s) 0) && oz_eqb v (eff_committed c) &&
              (if c_group c then looking s else true)); [|discriminate].
    intros [= <-]. left. repeat split.
  - destruct (resolved s) as [|v' rest]; [discriminate|]. destruct (oz_eqb v v'); [|discriminate].
    destruct (pos s); [intros [= <-]; left; repeat split|].
    destruct (rst s); [intros [= <-]; left; repeat split|]. intros _. right. left. split; reflexivity.
  - destruct (pos s); [discriminate|]. destruct (rst s) as [y|]; [|discriminate].
    destruct (strat_eqb x y); [|discriminate]. intros [= <-]. left. repeat split.
  - destruct (remove_strat x (lo s)); [|discriminate]. destruct (rst s) as [y|]; [|discriminate].
    destruct (strat_eqb x y) eqn:E; [|discriminate]. apply strat_eqb_eq in E. subst y.
    intros [= <-]. right. right. exists x, l, h, ls. repeat split.
  - destruct (remove_strat x (lo s)); [|discriminate].
    destruct (match rst s with None => true | Some y => negb (strat_eqb x y) end); [|discriminate].
    intros [= <-]. left. repeat split.
  - destruct (remove_strat x (lo s)); [|discriminate]. intros [= <-]. left. repeat split.
  - destruct (err s) as [k'|]; [|discriminate]. destruct (errk_eqb k k'); [|discriminate].
    intros [= <-]. left. repeat split.
  - destruct (oz_eqb (pos s) (Some p)); [|discriminate]. intros [= <-]. left. repeat split.
Qed.

Definition sought (o : Z) (s : st) : Prop :=
  pos s = Some o /\ rst s = None /\ origin_ s = Some (OSeek o).

Lemma step_sought c o s e s' : sought o s -> quiet_ev e = true -> step c s e = Some s' -> sought o s'.
Proof.
  intros (P & R & O) Q H. unfold sought.
  destruct (quiet_frame c s e s' Q H) as [(P' & R' & O')|[(P' & _)|(x & _ & _ & _ & R' & _)]].
  - rewrite P', R', O'. repeat split; assumption.
  - congruence.
  - congruence.
Qed.

Definition seeking (c : cfg) (x : strat) (s : st) : Prop :=
  (pos s = None /\ rst s = Some x) \/
  (exists l h ls, pos s = Some (answer (c_iso c) x l h ls) /\ rst s = None /\
                  origin_ s = Some (OReset x l h ls)).

Lemma step_seeking c x s e s' : seeking c x s -> quiet_ev e = true -> step c s e = Some s' -> seeking c x s'.
Proof.
  intros SK Q H. destruct (quiet_frame c s e s' Q H) as [(P' & R' & O')|[(P' & R')|(y & l & h & ls & R' & P' & R'' & O')]].
  - unfold seeking. rewrite P', R', O'. exact SK.
  - destruct SK as [(_ & R)|(l & h & ls & P & _)]; congruence.
  - destruct SK as [(_ & R)|(_ & _ & _ & _ & R & _)]; [|congruence].
    replace x with y by congruence. right. exists l, h, ls. repeat split; assumption.
Qed.

Theorem seek_to_precedence c tr1 x tr2 s :
  run c fresh (tr1 ++ SeekTo x :: tr2) = Some s -> forallb quiet_ev tr2 = true ->
  forall p, pos s = Some p ->
  exists l h ls, origin_ s = Some (OReset x l h ls) /\ p = answer (c_iso c) x l h ls.
Proof.
  rewrite run_app. destruct (run c fresh tr1) as [s0|]; [|discriminate]. cbn [run step].
  intros H Q p Hp. assert (SK : seeking c x s).
  { revert H. apply (run_keeps c (seeking c x) _ (step_seeking c x)); [left; split; reflexivity|exact Q]. }
  destruct SK as [(P & _)|(l & h & ls & P & R & O)]; [congruence|].
  exists l, h, ls. split; [exact O|congruence].
Qed.

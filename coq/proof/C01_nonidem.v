(* C01_nonidem.v — without idempotence duplicates are whole re-sent batches, in order *)
From Coq Require Import ZArith List Bool Lia.
From Verif Require Import Producer C01_proof.
Import ListNotations.

Lemma stut_snoc : forall bs ks b k, length bs = length ks ->
  stut (bs ++ [b]) (ks ++ [k]) = stut bs ks ++ repeat b k.
Proof.
  induction bs as [|x bs IH]; intros ks b k Hl; destruct ks as [|y ks]; cbn in Hl; try discriminate.
  - cbn. rewrite app_nil_r. reflexivity.
  - cbn [app stut]. rewrite IH by lia. rewrite app_assoc. reflexivity.
Qed.

(* the log is the drained batches in drain order, each repeated as a whole block some number of
   times (possibly zero for the one still unacknowledged); the batches themselves partition a
   prefix of the accepted records in acceptance order *)
Record NInv (s : nst) : Prop := {
  n_stut : exists ks, length ks = length (ndr s) /\ nlog s = stut (ndr s) ks;
  n_pend : forall b l, npend s = Some (b, l) -> exists pre, ndr s = pre ++ [b];
  n_recs : naccepted s = concat (ndr s) ++ concat (nuq s)
}.

Lemma ninv_init : NInv ninit.
Proof.
  constructor; cbn.
  - exists []. split; reflexivity.
  - intros; discriminate.
  - reflexivity.
Qed.

Lemma nstep_inv s e s' : NInv s -> nstep s e = Some s' -> NInv s'.
Proof.
  intros [Hs Hp Hr] H.
  destruct s as [q pd lg dr ac]. cbn [nuq npend nlog ndr naccepted] in *.
  destruct e; cbn [nstep nuq npend nlog ndr naccepted] in H.
  - assert (G : forall q', concat q' = concat q ++ [r] -> NInv (mkN q' pd lg dr (ac ++ [r]))).
    { intros q' Hc. constructor; cbn; [exact Hs|exact Hp|]. rewrite Hc, Hr, app_assoc. reflexivity. }
    destruct newb.
    + injection H as <-. apply G. rewrite concat_app. cbn. reflexivity.
    + destruct (snoc_last q r) as [q'|] eqn:E; [|discriminate]. injection H as <-.
      apply G, (snoc_last_spec _ _ _ E).
  - destruct pd as [[b l]|].
    + destruct l; try discriminate. injection H as <-. constructor; cbn; [exact Hs| |exact Hr].
      intros b' l' [= <- <-]. exact (Hp b InQueue eq_refl).
    + destruct q as [|b q']; [discriminate|]. injection H as <-. constructor; cbn.
      * destruct Hs as (ks & Hk & Hs). exists (ks ++ [O]). split; [rewrite !app_length; cbn; lia|].
        rewrite stut_snoc by lia. cbn. rewrite app_nil_r. exact Hs.
      * intros b' l' [= <- <-]. exists dr. reflexivity.
      * rewrite Hr, concat_app. cbn. rewrite app_nil_r, app_assoc. reflexivity.
  - destruct pd as [[b l]|]; [|discriminate]. destruct l; try discriminate. injection H as <-.
    destruct (Hp b Sent eq_refl) as (pre & Hpre).
    constructor; cbn; [|intros b' l' [= <- <-]; exists pre; exact Hpre|exact Hr].
    (* the last repeat count grows by one *)
    destruct Hs as (ks & Hk & Hs). rewrite Hpre, app_length in Hk. cbn in Hk.
    destruct (exists_last (l:=ks)) as (ks0 & k & ->); [intros ->; cbn in Hk; lia|].
    rewrite app_length in Hk. cbn in Hk.
    exists (ks0 ++ [S k]). split; [rewrite Hpre, !app_length; cbn; lia|].
    rewrite Hs, Hpre, !stut_snoc by lia. cbn [repeat]. rewrite repeat_cons, app_assoc. reflexivity.
  - destruct pd as [[b l]|]; [|discriminate]. destruct l; try discriminate. injection H as <-.
    constructor; cbn; [exact Hs|intros; discriminate|exact Hr].
  - destruct pd as [[b l]|]; [|discriminate].
    assert (H' : s' = mkN q (Some (b, InQueue)) lg dr ac) by (destruct l; try discriminate; injection H as <-; reflexivity).
    subst s'. constructor; cbn; [exact Hs| |exact Hr].
    intros b' l' [= <- <-]. exact (Hp b l eq_refl).
  - destruct pd as [[b l]|]; [|discriminate]. injection H as <-.
    constructor; cbn; [exact Hs|intros; discriminate|exact Hr].
  - destruct pd; [discriminate|]. destruct q; [|discriminate]. injection H as <-.
    constructor; cbn; [exact Hs|exact Hp|exact Hr].
Qed.

Lemma nrun_inv : forall tr s s', NInv s -> nrun s tr = Some s' -> NInv s'.
Proof.
  induction tr as [|e tr IH]; intros s s' I H; cbn [nrun] in H.
  - injection H as <-. exact I.
  - destruct (nstep s e) as [s1|] eqn:E; [|discriminate].
    eapply IH; [eapply nstep_inv; eassumption|exact H].
Qed.

(* C11_flat.v — inlining nested structures ([flat] / [vflat]) does not change the bytes:
   two schemas with the same [flat] put the same bytes on the wire. *)
From Coq Require Import ZArith List Bool Lia.
From Verif Require Import Wire C11Tables WireRun C11_roundtrip.
Import ListNotations.
Open Scope Z_scope.

Fixpoint vflat_fields (fs : list ty) (l : list val) : list val :=
  match fs, l with
  | f :: fs', x :: l' => vflat f x ++ vflat_fields fs' l'
  | _, _ => []
  end.

Lemma vflat_schema fs l : vflat (TSchema fs) (VTup l) = vflat_fields fs l.
Proof. reflexivity. Qed.

Lemma enc_fields_app : forall a va b vb, length va = length a ->
  enc_fields (a ++ b) (va ++ vb) = enc_fields a va ++ enc_fields b vb.
Proof.
  induction a as [|t a IH]; intros va b vb H.
  - destruct va; [reflexivity|discriminate].
  - destruct va as [|v va]; [discriminate|]. cbn [app enc_fields].
    rewrite IH by (cbn in H; lia). rewrite app_assoc. reflexivity.
Qed.

Lemma flat_map_map {A B C} (g : A -> B) (f : B -> list C) l :
  flat_map f (map g l) = flat_map (fun x => f (g x)) l.
Proof. induction l; cbn; [reflexivity|]. f_equal. assumption. Qed.

Lemma flat_map_ext_in {A B} (f g : A -> list B) l :
  (forall x, In x l -> f x = g x) -> flat_map f l = flat_map g l.
Proof.
  induction l as [|a l IH]; intros H; cbn; [reflexivity|].
  rewrite (H a) by (left; reflexivity). f_equal. apply IH. intros x Hx. apply H. right. exact Hx.
Qed.

Definition flat_ok (t : ty) : Prop := forall v, wt t v = true ->
  length (vflat t v) = length (flat t) /\ enc_fields (flat t) (vflat t v) = enc t v.

Lemma enc_fields_one t v : enc_fields [t] [v] = enc t v.
Proof. apply app_nil_r. Qed.

Lemma flat_ok_prim t : (forall v, vflat t v = [v]) -> flat t = [t] -> flat_ok t.
Proof. intros Hv Hf v _. rewrite Hv, Hf. split; [reflexivity|apply enc_fields_one]. Qed.

(* an array of [t] and the array of its flattened elements, under any count header [hdr] *)
Lemma array_flat (hdr : Z -> list Z) t l :
  flat_ok t -> forallb (wt t) l = true ->
  let l' := map (fun x => VTup (vflat t x)) l in
  hdr (blen l') ++ flat_map (enc (TSchema (flat t))) l' = hdr (blen l) ++ flat_map (enc t) l.
Proof.
  intros Ht Hall l'. unfold blen, l'. rewrite map_length, flat_map_map. f_equal.
  apply flat_map_ext_in. intros x Hx.
  rewrite enc_schema. apply Ht. exact (proj1 (forallb_forall _ _) Hall x Hx).
Qed.

Theorem flat_same_bytes : forall t v, wt t v = true ->
  enc (TSchema (flat t)) (VTup (vflat t v)) = enc t v.
Proof.
  intros t. assert (Hall : flat_ok t); [|intros v H; exact (proj2 (Hall v H))].
  induction t using ty_ind'; try (apply flat_ok_prim; [intros []; reflexivity|reflexivity]).
  - (* Array *)
    intros v Hwt. destruct v as [| | | | |[l|]|]; try discriminate; (split; [reflexivity|]).
    + cbn [wt] in Hwt. apply andb_prop in Hwt as [_ Hall].
      cbn [vflat flat]. rewrite enc_fields_one. exact (array_flat (be 4) t l IHt Hall).
    + reflexivity.
  - (* CompactArray *)
    intros v Hwt. destruct v as [| | | | |[l|]|]; try discriminate; (split; [reflexivity|]).
    + cbn [wt] in Hwt. apply andb_prop in Hwt as [_ Hall].
      cbn [vflat flat]. rewrite enc_fields_one.
      exact (array_flat (fun n => enc_uvarint (n + 1)) t l IHt Hall).
    + reflexivity.
  - (* Schema *)
    intros v Hwt. destruct v as [| | | | | |l]; try discriminate.
    rewrite wt_schema in Hwt. rewrite vflat_schema, enc_schema. cbn [flat].
    revert l Hwt. induction H as [|f fs Hf Hfs IH]; intros l Hwt.
    + destruct l; [split; reflexivity|discriminate].
    + destruct l as [|x l]; [discriminate|].
      cbn [wt_fields] in Hwt. apply andb_prop in Hwt as [Hx Hl].
      destruct (Hf x Hx) as [Hlen Henc]. destruct (IH l Hl) as [Hlen' Henc'].
      cbn [flat_map vflat_fields enc_fields]. split.
      * rewrite !app_length. lia.
      * rewrite enc_fields_app by assumption. rewrite Henc, Henc'. reflexivity.
Qed.

(* [layout_eqb] is [ty_eqb] after [flat]; with [flat_same_bytes]: equal layouts, equal bytes
   (props/C11.v, c11_same_layout_same_bytes) *)
Lemma ty_eqb_eq : forall a b, ty_eqb a b = true -> a = b.
Proof.
  fix IH 1. intros a b. destruct a, b; cbn; try discriminate; try reflexivity.
  - intros H. f_equal. apply IH. exact H.
  - intros H. f_equal. apply IH. exact H.
  - revert fs0. induction fs as [|x xs IHxs]; intros [|y ys] H; try discriminate; [reflexivity|].
    apply andb_prop in H as [H1 H2]. specialize (IHxs ys H2). inversion IHxs; subst.
    f_equal. f_equal. apply IH. exact H1.
Qed.

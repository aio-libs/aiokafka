(* C14 — the boolean checkers decide the Prop statements of the property. *)
From Coq Require Import Arith List Bool Lia PeanoNat.
From Verif Require Import C14_Assignors C14_lists C14_Sticky.
Import ListNotations.

Lemma tp_eqb_spec : forall a b : nat * nat, reflect (a = b) (tp_eqb a b).
Proof.
  intros [a1 a2] [b1 b2]. unfold tp_eqb. simpl.
  destruct (Nat.eqb_spec a1 b1), (Nat.eqb_spec a2 b2); constructor; congruence.
Qed.

Lemma mem_tp_In : forall x l, mem_tp x l = true <-> In x l.
Proof.
  intros. unfold mem_tp. rewrite existsb_exists. split.
  - intros [y [Hy E]]. destruct (tp_eqb_spec x y); [subst; auto | discriminate].
  - intros H. exists x. split; auto. destruct (tp_eqb_spec x x); congruence.
Qed.

Lemma nodup_tp_b_spec : forall l, nodup_tp_b l = true <-> NoDup l.
Proof.
  induction l as [|x l IH]; simpl.
  - split; auto. constructor.
  - rewrite andb_true_iff, negb_true_iff, IH, <- not_true_iff_false, mem_tp_In. split.
    + intros [H1 H2]. constructor; auto.
    + intros H. inversion H; auto.
Qed.

Lemma owner_some_In : forall st x m, owner st x = Some m -> In (m, x) st.
Proof.
  induction st as [|[m' y] r IH]; simpl; intros x m H; [discriminate|].
  destruct (tp_eqb_spec y x) as [->|_]; [inversion H|]; auto.
Qed.

Lemma owner_none_iff : forall st x, owner st x = None <-> ~ In x (map snd st).
Proof.
  induction st as [|[m' y] r IH]; simpl; intros x; [tauto|].
  destruct (tp_eqb_spec y x) as [->|Hne].
  - split; [discriminate|tauto].
  - rewrite IH. tauto.
Qed.

Lemma owner_In_nodup : forall st x m, NoDup (map snd st) -> In (m, x) st -> owner st x = Some m.
Proof.
  induction st as [|[m' y] r IH]; simpl; intros x m Hn Hin; [tauto|].
  inversion Hn; subst. destruct Hin as [E|Hin].
  - inversion E; subst. destruct (tp_eqb_spec x x); congruence.
  - destruct (tp_eqb_spec y x) as [->|_]; auto.
    exfalso. apply H1. apply (in_map snd _ _ Hin).
Qed.

Lemma owner_exists : forall st x, In x (map snd st) -> exists m, owner st x = Some m.
Proof.
  intros st x H. destruct (owner st x) eqn:E; eauto.
  apply owner_none_iff in E. tauto.
Qed.

Lemma has_partition_b_spec : forall ppt x, has_partition_b ppt x = true <-> has_partition ppt x.
Proof.
  intros. unfold has_partition_b, has_partition. destruct (lookup_parts ppt (fst x)) as [n|].
  - rewrite Nat.ltb_lt. split; eauto. intros [n' [E H]]. inversion E; subst; auto.
  - split; [discriminate|]. intros [n [E _]]. discriminate.
Qed.

Lemma potential_b_iff : forall ppt ms c x,
  potential_b ppt ms c x = true <->
  In c (map fst ms) /\ In (fst x) (subs_of ms c) /\ has_partition ppt x.
Proof.
  intros. unfold potential_b, is_member_b.
  rewrite !andb_true_iff, !mem_nat_In, has_partition_b_spec. tauto.
Qed.

Lemma potential_b_spec : forall ppt ms c x, ids_nodup ms ->
  (potential_b ppt ms c x = true <-> subscribed ms c (fst x) /\ has_partition ppt x).
Proof.
  intros ppt ms c x Hi. rewrite potential_b_iff. split.
  - intros [_ [Hs Hp]]. split; auto. apply subs_of_subscribed; auto.
  - intros [Hs Hp]. eauto using subscribed_member, subscribed_subs_of.
Qed.

Lemma potentials_In : forall ppt ms x c,
  In c (potentials ppt ms x) <-> potential_b ppt ms c x = true.
Proof. intros. unfold potentials. rewrite filter_In, potential_b_iff. tauto. Qed.

Lemma potentials_nonempty : forall ppt ms x, ids_nodup ms ->
  (potentials ppt ms x <> [] <-> assignable ppt ms x).
Proof.
  intros ppt ms x Hi. unfold assignable. split.
  - intros H. destruct (potentials ppt ms x) as [|c r] eqn:E; [congruence|].
    assert (Hc : potential_b ppt ms c x = true) by (apply potentials_In; rewrite E; simpl; auto).
    apply potential_b_spec in Hc; auto. destruct Hc. eauto.
  - intros [Hp [m Hs]] E.
    assert (Hc : In m (potentials ppt ms x)) by (apply potentials_In, potential_b_spec; auto).
    rewrite E in Hc. destruct Hc.
Qed.

Lemma all_parts_In : forall ppt x, In x (all_parts ppt) <-> has_partition ppt x.
Proof.
  intros. change (all_parts ppt) with (parts_of ppt (nodup Nat.eq_dec (map fst ppt))).
  rewrite parts_of_In, nodup_In. split; [tauto|]. intros H. split; auto.
  destruct H as [n [L _]]. eapply lookup_parts_In; eauto.
Qed.

Definition complete (ppt : layout) (ms : members_t) (st : triples) : Prop :=
  forall x, assignable ppt ms x -> exists m, In (m, x) st.

Lemma complete_b_spec : forall ppt ms st, ids_nodup ms ->
  (complete_b ppt ms st = true <-> complete ppt ms st).
Proof.
  intros ppt ms st Hi. unfold complete_b, complete. rewrite forallb_forall. split.
  - intros H x Ha. pose proof Ha as [Hp _]. apply all_parts_In in Hp. specialize (H x Hp).
    apply potentials_nonempty in Ha; auto.
    destruct (potentials ppt ms x); [congruence|].
    destruct (owner st x) as [m|] eqn:E; [|discriminate]. exists m. apply owner_some_In; auto.
  - intros H x Hx. destruct (potentials ppt ms x) eqn:E; auto.
    assert (Ha : assignable ppt ms x) by (apply potentials_nonempty; auto; congruence).
    destruct (H x Ha) as [m Hm].
    destruct (owner st x) eqn:Eo; auto. apply owner_none_iff in Eo. exfalso. apply Eo.
    apply (in_map snd _ _ Hm).
Qed.

Theorem valid_b_spec : forall ppt ms tr, ids_nodup ms ->
  (valid_b ppt ms tr = true <-> valid ppt ms tr).
Proof.
  intros ppt ms tr Hi. unfold valid_b, valid.
  rewrite !andb_true_iff, nodup_tp_b_spec.
  change (forallb _ (all_parts ppt) = true) with (complete_b ppt ms tr = true).
  rewrite complete_b_spec by auto. rewrite forallb_forall. unfold complete. split.
  - intros [[H1 H2] H3]. split; auto. split; auto.
    intros m x Hin. apply (potential_b_spec ppt ms m x Hi). apply (H2 (m, x)); auto.
  - intros [H1 [H2 H3]]. split; auto. split; auto.
    intros [m x] Hin. simpl. apply potential_b_spec; auto.
Qed.

Lemma pairs_within_one_iff : forall st cs,
  pairs_within_one st cs = true <-> forall a b, In a cs -> In b cs -> load st a <= load st b + 1.
Proof.
  intros. unfold pairs_within_one. rewrite forallb_forall. split.
  - intros H a b Ha Hb. specialize (H a Ha). rewrite forallb_forall in H. apply Nat.leb_le. auto.
  - intros H a Ha. apply forallb_forall. intros b Hb. apply Nat.leb_le. auto.
Qed.

Theorem within_one_b_spec : forall ms tr, within_one_b ms tr = true <-> within_one ms tr.
Proof. intros. exact (pairs_within_one_iff tr (map fst ms)). Qed.

Theorem kip54_balanced_b_spec : forall ms tr, ids_nodup ms ->
  (kip54_balanced_b ms tr = true <-> kip54_balanced ms tr).
Proof.
  intros ms tr Hi. unfold kip54_balanced_b, kip54_balanced. rewrite forallb_forall. split.
  - intros H m x o Hin Ho Hs. specialize (H (m, x) Hin). rewrite forallb_forall in H.
    specialize (H o Ho). simpl in H.
    rewrite (proj2 (mem_nat_In _ _) (subscribed_subs_of _ _ _ Hi Hs)) in H. apply Nat.ltb_lt, H.
  - intros H [m x] Hin. apply forallb_forall. intros o Ho. simpl.
    destruct (mem_nat (fst x) (subs_of ms o)) eqn:E; simpl; auto.
    apply Nat.ltb_lt. apply (H m x o); auto. apply subs_of_subscribed. apply mem_nat_In; auto.
Qed.

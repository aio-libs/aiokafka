(* C09_legacy_wrapper.v — the compressed legacy wrapper (relative inner offsets, LogAppendTime). *)
From Coq Require Import ZArith List Bool Lia ZifyBool.
From Verif Require Import Bits C09Bytes C09_Crc C09_Varint C09_RecordV2 C09_Legacy C09_MemRecords C09_Valid
  C09_split C09_v2 C09_legacy.
Import ListNotations.
Open Scope Z_scope.

Lemma attrs_codec_bits codec l : 1 <= codec <= 3 -> l = 0 \/ l = 8 ->
  Z.land (Z.lor codec l) CODEC_MASK = codec /\ (Z.land (Z.lor codec l) TS_TYPE_MASK =? 0) = (l =? 0)
  /\ 0 <= Z.lor codec l <= 127.
Proof.
  intros Hc Hl. assert (Hcs : codec = 1 \/ codec = 2 \/ codec = 3) by lia.
  destruct Hcs as [->|[->| ->]]; destruct Hl as [-> | ->]; cbv; repeat split; congruence.
Qed.

Lemma lstamp_wrapper magic woff lat payload codec :
  magic = 0 \/ magic = 1 -> 1 <= codec <= 3 -> blen payload < TWO31 - 64 ->
  lstamp woff lat (encode_msg magic 0 0 None (Some payload) codec)
  = encode_msg magic woff (match lat with Some t => t | None => 0 end) None (Some payload)
               (Z.lor codec (match lat with Some _ => TS_TYPE_MASK | None => 0 end)).
Proof.
  intros Hm Hc Hp. unfold lstamp.
  rewrite <- (app_nil_r (encode_msg magic 0 0 None (Some payload) codec)).
  pose proof (blen_nonneg payload) as Hpl.
  rewrite (parse_encode_msg Cy 0);
    [ | assumption | exact I | ul; lia | ul; lia | lia | cbn [olen]; lia ].
  unfold lmsg_parsed. cbn [g_attrs g_ts g_magic g_key g_value].
  destruct Hm as [-> | ->]; cbn [Z.eqb]; destruct lat; reflexivity.
Qed.

Lemma lmsg_of_nonempty c r : (1 <= List.length (lmsg_of c r))%nat.
Proof. unfold lmsg_of, encode_msg. cbv zeta. rewrite app_length, be_length. lia. Qed.

Lemma parse_all_msgs i c : valid_lcfg c -> forall acc fuel,
  Forall valid_lrec acc -> (List.length acc <= fuel)%nat ->
  parse_all fuel i (lc_magic c) (concat (map (lmsg_of c) acc))
  = Some (map (fun r => lmsg_parsed (lc_magic c) (r_offset r) (lmsg_ts c r) (r_key r) (r_value r) 0) acc).
Proof.
  intros Hc. induction acc as [|r acc IH]; intros fuel Hv Hf.
  - destruct fuel; reflexivity.
  - destruct fuel as [|fuel]; [cbn in Hf; lia|].
    inversion Hv as [|r' acc' Hr Hacc]; subst.
    cbn [map concat].
    pose proof (lmsg_of_nonempty c r) as Hne.
    destruct (lmsg_of c r ++ concat (map (lmsg_of c) acc)) as [|x l] eqn:El.
    { apply (f_equal (@List.length Z)) in El. rewrite app_length in El. cbn [List.length] in El. lia. }
    cbn [parse_all]. rewrite <- El.
    rewrite parse_lmsg by assumption. cbn [bind].
    match goal with |- context [(?a <=? ?b)%nat] =>
      replace (a <=? b)%nat with false
        by (symmetry; apply Nat.leb_gt; rewrite app_length; lia) end.
    rewrite IH by (try assumption; cbn [List.length] in Hf; lia).
    reflexivity.
Qed.

(* for any non-empty list of valid records, not only one that the builder accepted *)
Theorem wrapper_roundtrip
  (compress : Z -> bytes -> bytes) (decompress : Z -> bytes -> option bytes) :
  (forall c x, decompress c (compress c x) = Some x) ->
  forall i c acc woff lat,
    valid_lcfg c -> 1 <= lc_codec c <= 3 -> ~ (lc_codec c = 3 /\ lc_magic c = 0) ->
    Forall valid_lrec acc -> acc <> [] ->
    let buf := concat (map (lmsg_of c) acc) in
    blen (compress (lc_codec c) buf) < TWO31 - 64 -> valid_wstamp acc woff lat ->
    exists w, lbuild compress c buf = Some w
      /\ lread decompress i (lc_magic c) (lstamp woff lat w)
         = Some (map (lexpect_wrapped c acc woff lat) acc).
Proof.
  intros Hcodec i c acc woff lat Hc Hcod Hlz Hacc Hne buf Hcomp (Hwoff & Hlat).
  pose proof Hc as (Hm & _).
  set (payload := compress (lc_codec c) buf) in *.
  assert (Hlz4 : (lc_codec c =? 3) && (lc_magic c =? 0) = false).
  { destruct (lc_codec c =? 3) eqn:E3, (lc_magic c =? 0) eqn:E0; try reflexivity.
    exfalso. apply Hlz. lia. }
  exists (encode_msg (lc_magic c) 0 0 None (Some payload) (lc_codec c)). split.
  { unfold lbuild. replace (lc_codec c =? 0) with false by lia. rewrite Hlz4. reflexivity. }
  rewrite lstamp_wrapper by assumption.
  set (L := match lat with Some _ => TS_TYPE_MASK | None => 0 end).
  assert (HL : L = 0 \/ L = 8) by (subst L; destruct lat; [right|left]; reflexivity).
  destruct (attrs_codec_bits (lc_codec c) L Hcod HL) as (Hb1 & Hb2 & Hb3).
  set (wts := match lat with Some t => t | None => 0 end).
  assert (Hwts : int64 wts) by (subst wts; destruct lat; ul; lia).
  unfold lread.
  rewrite <- (app_nil_r (encode_msg _ _ _ _ _ _)).
  pose proof (blen_nonneg payload) as Hpl.
  destruct (rev acc) as [|rl l'] eqn:Hrl.
  { exfalso. apply Hne. rewrite <- (rev_involutive acc), Hrl. reflexivity. }
  assert (Hlast : llast_off acc = r_offset rl) by (unfold llast_off; rewrite Hrl; reflexivity).
  assert (Hwoff64 : int64 woff).
  { destruct (proj1 (Forall_forall _ _) Hacc rl) as (_ & Ho & _); [apply in_rev; rewrite Hrl; left; reflexivity|].
    ul. lia. }
  rewrite (parse_encode_msg i (lc_magic c));
    [ | assumption | destruct i; [reflexivity|exact I] | assumption | assumption | lia | cbn [olen]; lia ].
  cbn [bind]. unfold lmsg_parsed. cbn [g_attrs g_value g_offset g_ts].
  rewrite Hb1. replace (lc_codec c =? 0) with false by lia.
  cbn [bind]. rewrite Hlz4.
  subst payload. rewrite Hcodec. cbn [bind]. subst buf.
  rewrite (parse_all_msgs i c Hc acc)
    by (try assumption; pose proof (concat_map_length (lmsg_of c) acc (lmsg_of_nonempty c)); lia).
  cbn [bind].
  rewrite <- map_rev, Hrl. cbn [map].
  set (inner := map (fun r => lmsg_parsed (lc_magic c) (r_offset r) (lmsg_ts c r) (r_key r) (r_value r) 0) acc).
  replace (existsb (fun m => negb (Z.land (g_attrs m) CODEC_MASK =? 0)) inner) with false.
  2:{ symmetry. subst inner. clear. induction acc as [|r acc IH]; [reflexivity|]. cbn [map existsb].
      rewrite <- IH. reflexivity. }
  f_equal. subst inner. rewrite map_map. apply map_ext_in. intros r Hin.
  rewrite Forall_forall in Hacc. destruct (Hacc r Hin) as (Hts & Hoff & Hkv).
  unfold lmsg_parsed. cbn [g_offset g_ts g_key g_value g_crc g_attrs].
  rewrite Hb2. unfold lexpect_wrapped, lmsg_crc, lmsg_ts. rewrite Hlast in *.
  change (Z.land 0 TS_TYPE_MASK) with 0. cbn [Z.eqb negb orb].
  destruct Hm as [Em | Em]; rewrite Em in *; cbn [Z.eqb Z.ltb Z.compare negb andb].
  - (* magic 0: offsets and (absent) timestamps as they are *)
    rewrite andb_false_r. cbn [Z.leb Z.compare].
    destruct i; [reflexivity|].
    subst L. destruct lat; try change (TS_TYPE_MASK =? 0) with false; cbn [Z.eqb negb orb out_ts]; reflexivity.
  - (* magic 1: relative offsets, wrapper timestamp under LogAppendTime *)
    replace (0 <=? woff - r_offset rl) with true by lia.
    rewrite andb_true_r.
    destruct i.
    + subst L wts. destruct lat as [t|]; try change (TS_TYPE_MASK =? 0) with false;
        cbn [Z.eqb negb]; reflexivity.
    + subst L wts. destruct lat as [t|]; try change (TS_TYPE_MASK =? 0) with false;
        cbn [Z.eqb negb orb out_ts].
      * replace (t =? -1) with false by lia. reflexivity.
      * replace (r_ts r =? -1) with false by lia. reflexivity.
Qed.

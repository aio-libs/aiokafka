(* C11_roundtrip.v — decode (encode v ++ r) = (v, r) for every wire type, by induction on
   the type (nested induction principle for arrays / schemas). *)
From Coq Require Import ZArith List Bool Lia ZifyBool.
From Verif Require Import Bits Wire.
Import ListNotations.
Open Scope Z_scope.

Lemma take_app h r : take (length h) (h ++ r) = Some (h, r).
Proof. induction h as [|b h IH]; cbn; [reflexivity|]. rewrite IH. reflexivity. Qed.

Lemma firstn_app_len {A} (h r : list A) : firstn (length h) (h ++ r) = h.
Proof. induction h; cbn; [reflexivity|]. f_equal. assumption. Qed.

Lemma skipn_app_len {A} (h r : list A) : skipn (length h) (h ++ r) = r.
Proof. induction h; cbn; [reflexivity|]. assumption. Qed.

Lemma to_nat_blen {A} (l : list A) : Z.to_nat (blen l) = length l.
Proof. unfold blen. apply Nat2Z.id. Qed.

Lemma blen_app {A} (a b : list A) : blen (a ++ b) = blen a + blen b.
Proof. unfold blen. rewrite app_length. lia. Qed.

Lemma blen_nonneg {A} (a : list A) : 0 <= blen a.
Proof. unfold blen. lia. Qed.

Lemma split_at_app h r : split_at (blen h) (h ++ r) = Some (h, r).
Proof.
  unfold split_at. rewrite blen_app. pose proof (blen_nonneg r).
  replace (blen h + blen r <? blen h) with false by lia.
  rewrite to_nat_blen. apply take_app.
Qed.

Lemma be_length n z : length (be n z) = n.
Proof. induction n; cbn; [reflexivity|]. f_equal. assumption. Qed.

Lemma pow256_pos n : 0 < 256 ^ Z.of_nat n.
Proof. apply Z.pow_pos_nonneg; lia. Qed.

Lemma ube_be n : forall acc z,
  ube_acc acc (be n z) = acc * 256 ^ Z.of_nat n + z mod 256 ^ Z.of_nat n.
Proof.
  induction n as [|n IH]; intros acc z.
  - cbn. rewrite Z.mod_1_r. lia.
  - cbn [be ube_acc]. rewrite IH.
    rewrite Nat2Z.inj_succ, Z.pow_succ_r by lia.
    set (P := 256 ^ Z.of_nat n). assert (HP : 0 < P) by apply pow256_pos.
    rewrite (Z.mul_comm 256 P).
    rewrite (Z.rem_mul_r z P 256) by lia.
    ring.
Qed.

Lemma dec_uint_be n z r :
  0 <= z < 256 ^ Z.of_nat n -> dec_uint n (be n z ++ r) = Some (z, r).
Proof.
  intros Hz. unfold dec_uint. rewrite <- (be_length n z) at 1. rewrite take_app.
  rewrite ube_be. rewrite Z.mod_small by exact Hz. repeat f_equal; try lia.
Qed.

Lemma pow256_half n : (0 < n)%nat -> 256 ^ Z.of_nat n = 2 * 2 ^ (8 * Z.of_nat n - 1).
Proof.
  intros Hn. change 256 with (2 ^ 8). rewrite <- Z.pow_mul_r by lia.
  replace (8 * Z.of_nat n) with (Z.succ (8 * Z.of_nat n - 1)) at 1 by lia.
  rewrite Z.pow_succ_r by lia. reflexivity.
Qed.

Lemma dec_sint_be n z r :
  (0 < n)%nat ->
  - 2 ^ (8 * Z.of_nat n - 1) <= z < 2 ^ (8 * Z.of_nat n - 1) ->
  dec_sint n (be n z ++ r) = Some (z, r).
Proof.
  intros Hn Hz. unfold dec_sint, dec_uint.
  rewrite <- (be_length n z) at 1. rewrite take_app, ube_be.
  rewrite (pow256_half n Hn).
  set (H := 2 ^ (8 * Z.of_nat n - 1)) in *.
  assert (HH : 0 < H) by (apply Z.pow_pos_nonneg; lia).
  replace (0 * (2 * H) + z mod (2 * H)) with (z mod (2 * H)) by lia.
  destruct (Z.lt_ge_cases z 0) as [Hneg|Hpos].
  - rewrite <- (Z.mod_add z 1 (2 * H)) by lia.
    rewrite Z.mod_small by lia.
    destruct (z + 1 * (2 * H) <? H) eqn:E; [lia|]. f_equal. f_equal. lia.
  - rewrite Z.mod_small by lia.
    destruct (z <? H) eqn:E; [reflexivity|lia].
Qed.

Lemma dec_u8 z r : 0 <= z < 256 -> dec_uint 1 (be 1 z ++ r) = Some (z, r).
Proof. intros. apply dec_uint_be. cbn. lia. Qed.

Lemma low7_land128 x : 0 <= x < 128 -> Z.land x 128 = 0.
Proof. intros. apply (land_low_high x 1 7); lia. Qed.

Lemma low7_lor128 x : 0 <= x < 128 -> Z.lor x 128 = x + 128.
Proof. intros. apply (lor_low_high x 1 7); lia. Qed.

Lemma cont_land128 x : 0 <= x < 128 -> Z.land (x + 128) 128 = 128.
Proof.
  intros. rewrite <- low7_lor128 by assumption.
  rewrite Z.land_lor_distr_l, low7_land128 by assumption. reflexivity.
Qed.

Lemma cont_land127 x : 0 <= x < 128 -> Z.land (x + 128) 127 = x.
Proof. intros. rewrite land_127. lia. Qed.

(* (v & (ones k << 7)) == 0  iff  v < 128, for v below 2^(k+7) *)
Lemma high_mask_zero k v :
  0 <= k -> 0 <= v < 2 ^ (k + 7) ->
  (Z.land v (Z.ones k * 128) =? 0) = (v <? 128).
Proof.
  intros Hk Hv.
  assert (Hq : 0 <= v / 128 < 2 ^ k).
  { rewrite Z.pow_add_r in Hv by lia. change (2 ^ 7) with 128 in Hv. lia. }
  assert (Hx : 0 <= v mod 128 < 128) by lia.
  assert (Hvdm : v = v mod 128 + v / 128 * 128) by lia.
  set (x := v mod 128) in *. set (q := v / 128) in *.
  assert (Hland : Z.land v (Z.ones k * 128) = q * 128).
  { rewrite Hvdm. change 128 with (2 ^ 7).
    rewrite <- (lor_low_high x q 7) by (cbn; lia).
    rewrite Z.land_lor_distr_l.
    rewrite (land_low_high x (Z.ones k) 7) by (cbn; lia).
    rewrite Z.lor_0_l.
    rewrite <- !Z.shiftl_mul_pow2 by lia. rewrite <- Z.shiftl_land.
    rewrite Z.land_ones by lia. rewrite Z.mod_small by lia. reflexivity. }
  rewrite Hland.
  destruct (v <? 128) eqn:E; lia.
Qed.

(* 0xFFFFFF80 = ones 25 << 7, 0xFFFFFFFFFFFFFF80 = ones 57 << 7 *)
Lemma mask32_zero v : 0 <= v < 4294967296 -> (Z.land v 4294967168 =? 0) = (v <? 128).
Proof. intros. apply (high_mask_zero 25 v); cbn; lia. Qed.

Lemma mask64_zero v : 0 <= v < 18446744073709551616 ->
  (Z.land v 18446744073709551488 =? 0) = (v <? 128).
Proof. intros. apply (high_mask_zero 57 v); cbn; lia. Qed.

Lemma uv_last value i v r :
  0 <= i -> 0 <= value < 2 ^ i -> 0 <= v < 128 ->
  uv_dec value i (v :: r) = Some (value + v * 2 ^ i, r).
Proof.
  intros Hi Hval Hv. cbn [uv_dec]. rewrite low7_land128 by assumption. cbn [Z.eqb].
  rewrite Z.shiftl_mul_pow2 by assumption. rewrite lor_low_high by assumption. reflexivity.
Qed.

(* Encoder and decoder in step: with [f] rounds of the encoder's loop left (4 at the start) the
   decoder stands at bit [i] = 28 - 7 f, 28 being its limit; [value] holds the [i] bits read,
   [v] the 32 - i bits still to come. *)
Lemma uv_roundtrip_gen : forall f i v value r,
  i = 28 - 7 * Z.of_nat f -> 0 <= i ->
  0 <= value < 2 ^ i -> 0 <= v < 2 ^ (32 - i) ->
  uv_dec value i (uv_enc f v ++ r) = Some (value + v * 2 ^ i, r).
Proof.
  induction f as [|f IH]; intros i v value r Hi Hi0 Hval Hv.
  - cbn [uv_enc app]. apply uv_last; try assumption.
    replace i with 28 in * by lia. cbn in Hv. lia.
  - assert (Hv32 : 0 <= v < 4294967296).
    { split; [lia|]. eapply Z.lt_le_trans; [apply Hv|].
      change 4294967296 with (2 ^ 32). apply Z.pow_le_mono_r; lia. }
    cbn [uv_enc]. rewrite mask32_zero by assumption.
    destruct (v <? 128) eqn:Hsmall.
    + cbn [app]. apply uv_last; try assumption. lia.
    + rewrite land_127, Z.shiftr_div_pow2 by lia. change (2 ^ 7) with 128.
      rewrite low7_lor128 by lia.
      cbn [app uv_dec].
      rewrite cont_land128, cont_land127 by lia. cbn [Z.eqb].
      assert (Hi' : i + 7 = 28 - 7 * Z.of_nat f) by lia.
      destruct (i + 7 >? 28) eqn:Hgt; [lia|].
      rewrite Z.shiftl_mul_pow2 by assumption.
      rewrite lor_low_high by (try assumption; lia).
      assert (HP7 : 2 ^ (i + 7) = 2 ^ i * 128).
      { rewrite Z.pow_add_r by lia. reflexivity. }
      assert (HQ : 2 ^ (32 - i) = 2 ^ (32 - (i + 7)) * 128).
      { replace (32 - i) with ((32 - (i + 7)) + 7) by lia. rewrite Z.pow_add_r by lia. reflexivity. }
      set (P := 2 ^ i) in *.
      assert (HP : 0 < P) by (apply Z.pow_pos_nonneg; lia).
      rewrite IH; try lia.
      * f_equal. f_equal. rewrite HP7.
        rewrite (Z.div_mod v 128) at 3 by lia. ring.
      * rewrite HP7. split; [nia|]. nia.
Qed.

Lemma dec_uvarint_enc x r :
  0 <= x < 4294967296 -> dec_uvarint (enc_uvarint x ++ r) = Some (x, r).
Proof.
  intros Hx. unfold dec_uvarint, enc_uvarint.
  rewrite land_ones32, Z.mod_small by lia.
  rewrite (uv_roundtrip_gen 4 0 x 0 r); cbn; try lia.
  f_equal. f_equal. lia.
Qed.

Lemma unzigzag_even v : 0 <= v -> unzigzag (2 * v) = v.
Proof.
  intros Hv. unfold unzigzag.
  rewrite Z.shiftr_div_pow2 by lia. change (2 ^ 1) with 2.
  change 1 with (Z.ones 1). rewrite Z.land_ones by lia. change (2 ^ 1) with 2.
  replace ((2 * v) mod 2) with 0 by lia. replace (2 * v / 2) with v by lia.
  cbn. apply Z.lxor_0_r.
Qed.

Lemma dec_varint32_enc v r :
  0 <= v < 2147483648 -> dec_varint32 (enc_varint32 v ++ r) = Some (v, r).
Proof.
  intros Hv. unfold dec_varint32, enc_varint32.
  rewrite land_ones32, Z.mod_small by lia.
  rewrite Z.shiftl_mul_pow2, Z.shiftr_div_pow2 by lia.
  replace (v / 2 ^ 31) with 0 by (change (2 ^ 31) with 2147483648; lia).
  rewrite Z.lxor_0_r. change (2 ^ 1) with 2.
  rewrite dec_uvarint_enc by lia.
  rewrite (Z.mul_comm v 2), unzigzag_even by lia. reflexivity.
Qed.

Lemma dec_varint64_enc v r :
  0 <= v < 64 -> dec_varint64 (enc_varint64 v ++ r) = Some (v, r).
Proof.
  intros Hv. unfold dec_varint64, enc_varint64.
  change 18446744073709551615 with (Z.ones 64). rewrite Z.land_ones by lia.
  rewrite Z.mod_small by (cbn; lia).
  rewrite Z.shiftl_mul_pow2, Z.shiftr_div_pow2 by lia.
  replace (v / 2 ^ 63) with 0 by (change (2 ^ 63) with 9223372036854775808; lia).
  rewrite Z.lxor_0_r. change (2 ^ 1) with 2.
  cbn [v64_enc]. rewrite mask64_zero by lia.
  replace (v * 2 <? 128) with true by lia.
  cbn [app v64_dec]. rewrite low7_land128 by lia. cbn [Z.eqb].
  rewrite Z.shiftl_0_r, Z.lor_0_l.
  rewrite (Z.mul_comm v 2), unzigzag_even by lia. reflexivity.
Qed.

Lemma dec_blob_enc w maxlen o r :
  (0 < w)%nat -> maxlen < 2 ^ (8 * Z.of_nat w - 1) ->
  wt_blob maxlen o = true ->
  dec_blob w (enc_blob w o ++ r) = Some (o, r).
Proof.
  intros Hw Hmax Hwt. unfold dec_blob, enc_blob.
  assert (Hhalf : 0 < 2 ^ (8 * Z.of_nat w - 1)) by (apply Z.pow_pos_nonneg; lia).
  destruct o as [l|].
  - unfold wt_blob in Hwt. apply andb_prop in Hwt as [_ Hlen].
    rewrite <- app_assoc. rewrite dec_sint_be; [|assumption|unfold blen in *; lia].
    replace (blen l <? 0) with false by (unfold blen; lia).
    rewrite split_at_app. reflexivity.
  - rewrite dec_sint_be; [|assumption|lia]. reflexivity.
Qed.

Lemma dec_cblob_enc o r :
  wt_blob 4294967294 o = true -> dec_cblob (enc_cblob o ++ r) = Some (o, r).
Proof.
  intros Hwt. unfold dec_cblob, enc_cblob. destruct o as [l|].
  - unfold wt_blob in Hwt. apply andb_prop in Hwt as [_ Hlen].
    rewrite <- app_assoc. rewrite dec_uvarint_enc by (unfold blen in *; lia).
    replace (blen l + 1 - 1) with (blen l) by lia.
    replace (blen l <? 0) with false by (unfold blen; lia).
    rewrite split_at_app. reflexivity.
  - rewrite dec_uvarint_enc by lia. reflexivity.
Qed.

Lemma wt_tagged_cons prev k b l :
  wt_tagged prev ((k, b) :: l) = true <->
  prev < k < 4294967296 /\ wf_bytes b = true /\ blen b < 4294967296 /\ wt_tagged k l = true.
Proof. cbn [wt_tagged]. destruct (wf_bytes b), (wt_tagged k l); lia. Qed.

Lemma dec_tagged_loop_enc : forall l prev r,
  -1 <= prev -> wt_tagged prev l = true ->
  dec_tagged_loop (length l) prev
    (flat_map (fun kv => enc_uvarint (fst kv) ++ enc_uvarint (blen (snd kv)) ++ snd kv) l ++ r)
  = Some (l, r).
Proof.
  induction l as [|[k b] l IH]; intros prev r Hprev Hwt.
  - reflexivity.
  - apply wt_tagged_cons in Hwt as (Hk & _ & Hblen & Hrest).
    cbn [flat_map length dec_tagged_loop fst snd].
    rewrite <- !app_assoc.
    rewrite dec_uvarint_enc by lia.
    replace (k <=? prev) with false by lia.
    rewrite dec_uvarint_enc by (unfold blen in *; lia).
    rewrite blen_app. pose proof (blen_nonneg (flat_map
      (fun kv : Z * list Z => enc_uvarint (fst kv) ++ enc_uvarint (blen (snd kv)) ++ snd kv) l ++ r)).
    rewrite Z.min_l by lia. rewrite !to_nat_blen.
    rewrite firstn_app_len, skipn_app_len.
    rewrite IH by (try assumption; lia). reflexivity.
Qed.

Lemma uv_enc_nonempty f v : (1 <= length (uv_enc f v))%nat.
Proof. destruct f; cbn; [lia|]. destruct (_ =? _); cbn; lia. Qed.

Lemma tagged_fields_length (l : list (Z * list Z)) :
  (length l <= length (flat_map (fun kv => enc_uvarint (fst kv) ++ enc_uvarint (blen (snd kv)) ++ snd kv) l))%nat.
Proof.
  induction l as [|kv l IH]; cbn [flat_map length]; [lia|].
  rewrite !app_length. unfold enc_uvarint at 1.
  pose proof (uv_enc_nonempty 4 (Z.land (fst kv) 4294967295)). lia.
Qed.

Lemma sort_tags_asc : forall l prev, wt_tagged prev l = true -> sort_tags l = l.
Proof.
  induction l as [|[k b] l IH]; intros prev H; [reflexivity|].
  apply wt_tagged_cons in H as (_ & _ & _ & Hrest).
  cbn [sort_tags]. rewrite (IH k Hrest).
  destruct l as [|[k' b'] l']; [reflexivity|].
  apply wt_tagged_cons in Hrest as (Hkk & _).
  cbn [ins_tag fst]. replace (k <=? k') with true by lia. reflexivity.
Qed.

Lemma dec_tagged_enc l r :
  (blen l <? 4294967296) && wt_tagged (-1) l = true ->
  dec_tagged (enc_tagged l ++ r) = Some (l, r).
Proof.
  intros Hwt. apply andb_prop in Hwt as [Hlen Hwt].
  unfold dec_tagged, enc_tagged. rewrite (sort_tags_asc l (-1) Hwt). rewrite <- app_assoc.
  rewrite dec_uvarint_enc by (unfold blen in *; lia).
  pose proof (tagged_fields_length l) as Hfl.
  match goal with |- (if ?c then _ else _) = _ => destruct c eqn:E end.
  { exfalso. rewrite blen_app in E. unfold blen in E, Hfl. lia. }
  rewrite to_nat_blen.
  apply dec_tagged_loop_enc; [lia|assumption].
Qed.

Fixpoint enc_fields (fs : list ty) (l : list val) : list Z :=
  match fs, l with
  | f :: fs', x :: l' => enc f x ++ enc_fields fs' l'
  | _, _ => []
  end.

Fixpoint dec_fields (fs : list ty) (bs : list Z) : option (list val * list Z) :=
  match fs with
  | [] => Some ([], bs)
  | f :: fs' => match dec f bs with
                | Some (v, r) => match dec_fields fs' r with
                                 | Some (l, r') => Some (v :: l, r')
                                 | None => None
                                 end
                | None => None
                end
  end.

Fixpoint wt_fields (fs : list ty) (l : list val) : bool :=
  match fs, l with
  | [], [] => true
  | f :: fs', x :: l' => wt f x && wt_fields fs' l'
  | _, _ => false
  end.

(* the anonymous loops of [enc], [dec] and [wt] at a schema are these three functions *)
Lemma enc_schema fs l : enc (TSchema fs) (VTup l) = enc_fields fs l.
Proof. reflexivity. Qed.

Lemma dec_schema fs bs : dec (TSchema fs) bs = omap VTup (dec_fields fs bs).
Proof. reflexivity. Qed.

Lemma wt_schema fs l : wt (TSchema fs) (VTup l) = wt_fields fs l.
Proof. reflexivity. Qed.

Definition rt (t : ty) : Prop :=
  forall v r, wt t v = true -> dec t (enc t v ++ r) = Some (v, r).

Lemma rep_roundtrip t : rt t -> forall l r,
  forallb (wt t) l = true ->
  rep (dec t) (length l) (flat_map (enc t) l ++ r) = Some (l, r).
Proof.
  intros Ht. induction l as [|x l IH]; intros r Hwt; [reflexivity|].
  cbn [forallb] in Hwt. apply andb_prop in Hwt as [Hx Hl].
  cbn [flat_map length rep]. rewrite <- app_assoc.
  rewrite Ht by assumption. rewrite IH by assumption. reflexivity.
Qed.

Lemma rep_app d : forall n m bs,
  rep d (n + m) bs = match rep d n bs with
                     | Some (l1, r1) => match rep d m r1 with
                                        | Some (l2, r2) => Some (l1 ++ l2, r2)
                                        | None => None
                                        end
                     | None => None
                     end.
Proof.
  induction n as [|n IH]; intros m bs.
  - cbn. destruct (rep d m bs) as [[l r]|]; reflexivity.
  - cbn [Nat.add rep]. destruct (d bs) as [[v r]|]; [|reflexivity].
    rewrite IH. destruct (rep d n r) as [[l1 r1]|]; [|reflexivity].
    destruct (rep d m r1) as [[l2 r2]|]; reflexivity.
Qed.

Lemma rep_pos_eq d : forall p bs, rep_pos d p bs = rep d (Pos.to_nat p) bs.
Proof.
  induction p as [p IH|p IH|]; intros bs.
  - rewrite Pos2Nat.inj_xI. replace (2 * Pos.to_nat p)%nat with (Pos.to_nat p + Pos.to_nat p)%nat by lia.
    cbn [rep_pos rep]. destruct (d bs) as [[v r0]|]; [|reflexivity].
    rewrite rep_app, !IH. destruct (rep d (Pos.to_nat p) r0) as [[l1 r1]|]; [|reflexivity].
    rewrite IH. destruct (rep d (Pos.to_nat p) r1) as [[l2 r2]|]; reflexivity.
  - rewrite Pos2Nat.inj_xO. replace (2 * Pos.to_nat p)%nat with (Pos.to_nat p + Pos.to_nat p)%nat by lia.
    cbn [rep_pos]. rewrite rep_app, !IH. destruct (rep d (Pos.to_nat p) bs) as [[l1 r1]|]; [|reflexivity].
    rewrite IH. reflexivity.
  - change (Pos.to_nat 1) with 1%nat. cbn [rep_pos rep]. destruct (d bs) as [[v r]|]; reflexivity.
Qed.

Lemma rep_z_eq d n bs : rep_z d n bs = rep d (Z.to_nat n) bs.
Proof. destruct n; cbn [rep_z Z.to_nat]; try reflexivity. apply rep_pos_eq. Qed.

Lemma fields_roundtrip fs : Forall rt fs -> forall l r,
  wt_fields fs l = true ->
  dec_fields fs (enc_fields fs l ++ r) = Some (l, r).
Proof.
  induction 1 as [|f fs Hf Hfs IH]; intros l r Hwt.
  - destruct l; [reflexivity|discriminate].
  - destruct l as [|x l]; [discriminate|].
    cbn [wt_fields] in Hwt. apply andb_prop in Hwt as [Hx Hl].
    cbn [enc_fields dec_fields]. rewrite <- app_assoc.
    rewrite Hf by assumption. rewrite IH by assumption. reflexivity.
Qed.

Lemma ty_ind' (P : ty -> Prop) :
  P TInt8 -> P TInt16 -> P TInt32 -> P TInt64 -> P TUInt32 -> P TBool -> P TFloat64 ->
  P TString -> P TBytes -> P TUVarInt -> P TVarInt32 -> P TVarInt64 ->
  P TCompactString -> P TCompactBytes -> P TTagged ->
  (forall t, P t -> P (TArray t)) ->
  (forall t, P t -> P (TCompactArray t)) ->
  (forall fs, Forall P fs -> P (TSchema fs)) ->
  forall t, P t.
Proof.
  intros. revert t. fix IH 1. destruct t; try assumption.
  - apply H14. apply IH.
  - apply H15. apply IH.
  - apply H16. induction fs as [|f fs IHfs]; constructor; [apply IH|exact IHfs].
Qed.

#[local] Hint Rewrite dec_sint_be dec_uint_be dec_uvarint_enc dec_varint32_enc dec_varint64_enc
  using (cbn; lia) : dec_int.

Theorem roundtrip : forall t v r, wt t v = true -> dec t (enc t v ++ r) = Some (v, r).
Proof.
  intros t. change (rt t). induction t using ty_ind'; intros v r Hwt.
  1-15: destruct v; try discriminate; cbn [wt] in Hwt; cbn [enc dec].
  (* the integer types: the value lies in the range of its decoder *)
  1-5, 7, 10-12: unfold in_range in Hwt; autorewrite with dec_int; reflexivity.
  - destruct b; reflexivity.
  - rewrite (dec_blob_enc 2 32767) by (try assumption; cbn; lia). reflexivity.
  - rewrite (dec_blob_enc 4 2147483647) by (try assumption; cbn; lia). reflexivity.
  - rewrite dec_cblob_enc by assumption. reflexivity.
  - rewrite dec_cblob_enc by assumption. reflexivity.
  - rewrite dec_tagged_enc by assumption. reflexivity.
  - (* Array *)
    destruct v as [| | | | |o|]; try discriminate. destruct o as [l|].
    + cbn [wt] in Hwt. apply andb_prop in Hwt as [Hlen Hall].
      cbn [enc dec]. rewrite <- app_assoc. rewrite dec_sint_be by (unfold blen in *; cbn; lia).
      replace (blen l =? -1) with false by (unfold blen; lia).
      rewrite rep_z_eq, to_nat_blen. rewrite rep_roundtrip by assumption. reflexivity.
    + cbn [enc dec]. rewrite dec_sint_be by (cbn; lia). reflexivity.
  - (* CompactArray *)
    destruct v as [| | | | |o|]; try discriminate. destruct o as [l|].
    + cbn [wt] in Hwt. apply andb_prop in Hwt as [Hlen Hall].
      cbn [enc dec]. rewrite <- app_assoc. rewrite dec_uvarint_enc by (unfold blen in *; lia).
      replace (blen l + 1 - 1) with (blen l) by lia.
      replace (blen l =? -1) with false by (unfold blen; lia).
      rewrite rep_z_eq, to_nat_blen. rewrite rep_roundtrip by assumption. reflexivity.
    + cbn [enc dec]. rewrite dec_uvarint_enc by lia. reflexivity.
  - (* Schema *)
    destruct v as [| | | | | |l]; try discriminate.
    rewrite wt_schema in Hwt. rewrite enc_schema, dec_schema.
    rewrite fields_roundtrip by assumption. reflexivity.
Qed.

(* C10_crc_proof.v — what a batch object that could be constructed tells about its buffer, for ANY
   setting of the fix flags: the checksum field lies inside the buffer and is the one the
   object holds.  Hence a batch whose field differs from the checksum of its content is
   reported invalid (props/C10.v, c10_crc_detects). *)
From Coq Require Import ZArith List Bool Lia ZifyBool.
From Verif Require Import C10_Base C10_DecodeSafeCy C10_DecodeSafePy C10_wp C10_cy_proof.
Import ListNotations.
Open Scope Z_scope.

Lemma sub_prefix (l : list Z) m p n :
  0 <= p -> 0 <= n -> p + n <= m -> sub (sub l 0 m) p n = sub l p n.
Proof.
  intros. unfold sub. change (Z.to_nat 0) with O. rewrite skipn_O.
  rewrite skipn_firstn_comm, firstn_firstn. f_equal. lia.
Qed.

Lemma cy_l_read_record_inv f buf m p :
  cy_l_read_record f 0 buf 0 = Ok (m, p) -> 16 <= zlen buf /\ m_crc m = l_crc_field buf.
Proof.
  unfold cy_l_read_record. cbv zeta. intros H.
  do 2 (apply bind_ok_inv in H as (? & _ & H)).
  apply bind_ok_inv in H as (crc & Hcrc%rd_u_inv & H).
  do 2 (apply bind_ok_inv in H as (? & _ & H)).
  apply bind_ok_inv in H as ([ts p0] & _ & H).
  apply bind_ok_inv in H as (ksz & _ & H).
  apply bind_ok_inv in H as ([key p1] & _ & H).
  do 2 (apply bind_ok_inv in H as (? & _ & H)).
  apply bind_ok_inv in H as ([value p2] & _ & H).
  injection H as <- _. exact Hcrc.
Qed.

Lemma py_unpack_from_0_inv l size x :
  0 <= size -> py_unpack_from l 0 size = Ok x -> size <= zlen l /\ x = sub l 0 size.
Proof.
  unfold py_unpack_from. change (0 <? 0) with false. cbv iota.
  intros Hs. destruct (zlen l - 0 <? size) eqn:E; [discriminate|].
  intros H. injection H as <-. split; [lia|reflexivity].
Qed.

Lemma py_slice_from_eq l a : 0 <= a <= zlen l -> py_slice_from l a = sub l a (zlen l - a).
Proof.
  intros Ha. unfold py_slice_from, py_slice, py_norm.
  replace (a <? 0) with false by lia. replace (zlen l <? 0) with false by lia.
  replace (Z.min a (zlen l)) with a by lia. replace (Z.min (zlen l) (zlen l)) with (zlen l) by lia.
  destruct (a <? zlen l) eqn:E; [reflexivity|].
  replace (zlen l - a) with 0 by lia. reflexivity.
Qed.

Lemma py_v2_validate_eq crc32c h buf :
  21 <= zlen buf -> py_v2_validate crc32c h buf = (ph_crc h =? crc32c (v2_crc_content buf)).
Proof. intros. unfold py_v2_validate. rewrite py_slice_from_eq by lia. reflexivity. Qed.

Lemma py_l_validate_eq crc32 h buf :
  16 <= zlen buf -> py_l_validate crc32 h buf = (l_crc h =? crc32 (l_crc_content buf)).
Proof. intros. unfold py_l_validate. rewrite py_slice_from_eq by lia. reflexivity. Qed.

Lemma py_v2_new_inv buf h :
  py_v2_new buf = Ok h -> 21 <= zlen buf /\ ph_crc h = v2_crc_field buf.
Proof.
  unfold py_v2_new. intros H. apply bind_ok_inv in H as (l & Hl & H).
  apply py_unpack_from_0_inv in Hl as [Hlen ->]; [|lia].
  injection H as <-. cbn [ph_crc]. rewrite sub_prefix by lia. split; [lia|reflexivity].
Qed.

Lemma py_l_new_inv magic buf h :
  py_l_new magic buf = Ok h -> 16 <= zlen buf /\ l_crc h = l_crc_field buf.
Proof.
  unfold py_l_new, py_l_read_header. intros H.
  assert (Hn : 18 <= (if magic =? 0 then 18 else 26)) by (destruct (magic =? 0); lia).
  apply bind_ok_inv in H as (h0 & Hr & H).
  apply bind_ok_inv in Hr as (l & Hl & Hr).
  apply py_unpack_from_0_inv in Hl as [Hlen ->]; [|lia].
  destruct (negb _) in H; [discriminate|]. destruct (negb _) in H; [discriminate|].
  injection H as <-. injection Hr as <-.
  cbn [l_crc]. rewrite sub_prefix by lia. split; [lia|reflexivity].
Qed.

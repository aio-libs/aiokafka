(* C08_unpack.v — the isolation filter is exact on every answer a broker can give for a
   well-formed log.  The loop is walked once (loop_exact), given what one turn decides.  At
   read_committed the invariant between two turns (rc_inv) is:
     aborted_producers = producers having an aborted transaction of the index that started at or
     before the last batch handled and whose abort marker has not been passed,
     the queue = the index entries that start after that batch, sorted. *)
From Coq Require Import ZArith List Bool Lia ZifyBool Sorted.
From Verif Require Import Imp ConsumeAborted C08_Log C08_consume C08_wf.
Import ListNotations.
Open Scope Z_scope.

(* [sort_by_first] = sorted(aborted_transactions, key=first_offset): sorted, same elements *)
Lemma insert_in : forall e l x, In x (insert_by_first e l) <-> x = e \/ In x l.
Proof.
  induction l as [|y l IH]; intros x; cbn.
  - intuition auto.
  - destruct (snd e <? snd y); cbn; [intuition auto|]. rewrite IH. intuition auto.
Qed.

Lemma insert_sorted : forall e l, q_sorted l -> q_sorted (insert_by_first e l).
Proof.
  unfold q_sorted. induction l as [|y l IH]; intros S; cbn.
  - constructor; constructor.
  - inversion S as [|? ? Sl Fy]; subst. destruct (snd e <? snd y) eqn:E.
    + constructor; [exact S|]. constructor; [unfold le_first; lia|].
      eapply Forall_impl; [|exact Fy]. unfold le_first. intros; lia.
    + constructor; [auto|]. apply Forall_forall. intros x I. apply insert_in in I.
      destruct I as [->|I]; [unfold le_first; lia|]. rewrite Forall_forall in Fy. auto.
Qed.

Lemma sort_fold : forall l acc, q_sorted acc ->
  q_sorted (fold_left (fun a e => insert_by_first e a) l acc) /\
  (forall x, In x (fold_left (fun a e => insert_by_first e a) l acc) <-> In x l \/ In x acc).
Proof.
  induction l as [|e l IH]; intros acc S; cbn.
  - split; [exact S|]. intuition auto.
  - destruct (IH (insert_by_first e acc) (insert_sorted _ _ S)) as (S' & I'). split; [exact S'|].
    intros x. rewrite I', insert_in. intuition auto.
Qed.

Lemma sort_sorted : forall l, q_sorted (sort_by_first l).
Proof. intros. apply sort_fold. constructor. Qed.

Lemma sort_in : forall l x, In x (sort_by_first l) <-> In x l.
Proof. intros. unfold sort_by_first. rewrite (proj2 (sort_fold l [] ltac:(constructor))). cbn. tauto. Qed.

Lemma take_recs_filter : forall rs lo hi nfo, recs_ok lo hi rs ->
  fst (take_recs nfo rs) = filter (fun r => nfo <=? r_off r) rs.
Proof.
  induction rs as [|x rs IH]; cbn; intros lo hi nfo H; [reflexivity|].
  destruct H as (B & R). destruct (r_off x <? nfo) eqn:E.
  - replace (nfo <=? r_off x) with false by lia. eapply IH; exact R.
  - replace (nfo <=? r_off x) with true by lia. cbn [fst]. f_equal.
    rewrite (IH _ _ (r_off x + 1) R). apply filter_ext_in.
    intros r I. pose proof (recs_ok_in _ _ _ _ R I). lia.
Qed.

(* when next_fetch_offset and the fetch offset agree on the records of a batch below the bound,
   what the record loop takes is what the view shows *)
Lemma take_recs_range : forall rs lo hi nfo f bnd, recs_ok lo hi rs -> hi < bnd ->
  (forall r, In r rs -> (nfo <= r_off r <-> f <= r_off r)) ->
  fst (take_recs nfo rs) = filter (fun r => (f <=? r_off r) && (r_off r <? bnd)) rs.
Proof.
  intros rs lo hi nfo f bnd H L Hn. rewrite (take_recs_filter _ _ _ _ H). apply filter_ext_in.
  intros r Ir. pose proof (recs_ok_in _ _ _ _ H Ir). pose proof (Hn r Ir). lia.
Qed.

Lemma take_recs_sub : forall rs nfo r, In r (fst (take_recs nfo rs)) -> In r rs.
Proof.
  induction rs as [|x rs IH]; cbn; intros nfo r I; [contradiction|].
  destruct (r_off x <? nfo); [right; eauto|]. cbn in I. destruct I as [->|I]; [auto|right; eauto].
Qed.

Lemma decide_rc : forall b q ap,
  decide RC b q ap =
  let q1 := q_drop (b_base b) q in
  let ap1 := q_take (b_base b) q ++ ap in
  if b_ctl b then
    match b_recs b with
    | [] => (q1, ap1, Skip)
    | r :: _ => (q1, (if r_tag r =? 0 then ap_discard (b_pid b) ap1 else ap1), Skip)
    end
  else if b_txn b && ap_mem (b_pid b) ap1 then (q1, ap1, Skip) else (q1, ap1, Deliver).
Proof.
  intros. unfold decide, rc_block. rewrite (proj1 (consume_spec _ _)). cbn [fst snd].
  unfold contains_abort_marker, ABORT_TAG.
  destruct (b_ctl b) eqn:C; [destruct (b_recs b) as [|r rs]|];
    destruct (b_txn b && _); cbn; rewrite ?C; reflexivity.
Qed.

(* the batch is the abort marker of its producer *)
Definition is_abort (b : batch) : bool :=
  b_ctl b && match b_recs b with r :: _ => r_tag r =? 0 | [] => false end.

(* the same turn, read as: update the producer set, then decide by membership *)
Lemma decide_rc_set : forall b q ap,
  let ap1 := q_take (b_base b) q ++ ap in
  let ap2 := if is_abort b then ap_discard (b_pid b) ap1 else ap1 in
  decide RC b q ap =
  (q_drop (b_base b) q, ap2, if b_ctl b || b_txn b && ap_mem (b_pid b) ap2 then Skip else Deliver).
Proof.
  intros. rewrite decide_rc. unfold ap2, ap1, is_abort. cbv zeta. destruct (b_ctl b); cbn [andb orb].
  - destruct (b_recs b) as [|r rs]; [reflexivity|]. destruct (r_tag r =? 0); reflexivity.
  - destruct (b_txn b && _); reflexivity.
Qed.

Lemma decide_ru : forall b q ap,
  decide RU b q ap = if b_ctl b then (q, ap, Skip) else (q, ap, Deliver).
Proof. intros. unfold decide. cbn. destruct (b_ctl b); reflexivity. Qed.

Lemma decide_cases : forall i b q ap, exists q' ap',
  decide i b q ap = (q', ap', Skip) \/ decide i b q ap = (q', ap', Deliver) /\ b_ctl b = false.
Proof.
  intros. destruct i; [rewrite decide_ru|rewrite decide_rc; cbv zeta]; destruct (b_ctl b).
  - eexists _, _. left. reflexivity.
  - eexists _, _. right. split; reflexivity.
  - destruct (b_recs b); eexists _, _; left; reflexivity.
  - destruct (b_txn b && _); eexists _, _; [left|right; split]; reflexivity.
Qed.

Lemma loop_skip : forall i b bs q ap nfo q' ap',
  decide i b q ap = (q', ap', Skip) ->
  unpack_loop i (b :: bs) q ap nfo = unpack_loop i bs q' ap' (b_next b).
Proof. intros. cbn [unpack_loop]. rewrite H. reflexivity. Qed.

Lemma loop_deliver : forall i b bs q ap nfo q' ap',
  decide i b q ap = (q', ap', Deliver) ->
  unpack_loop i (b :: bs) q ap nfo =
  (fst (take_recs nfo (b_recs b)) ++ delivered (unpack_loop i bs q' ap' (b_next b)),
   position (unpack_loop i bs q' ap' (b_next b)), raised (unpack_loop i bs q' ap' (b_next b))).
Proof. intros. cbn [unpack_loop]. rewrite H. reflexivity. Qed.

Lemma ap_mem_in : forall p ap, ap_mem p ap = true <-> In p ap.
Proof.
  intros. unfold ap_mem. rewrite existsb_exists. split.
  - intros (x & I & E). assert (p = x) by lia. subst. exact I.
  - intros I. exists p. split; [exact I|lia].
Qed.

Lemma ap_mem_app : forall p a b, ap_mem p (a ++ b) = true <-> In p a \/ ap_mem p b = true.
Proof. intros. rewrite !ap_mem_in, in_app_iff. tauto. Qed.

Lemma ap_mem_discard : forall p x ap,
  ap_mem p (ap_discard x ap) = true <-> ap_mem p ap = true /\ p <> x.
Proof.
  intros. rewrite !ap_mem_in. unfold ap_discard. rewrite filter_In. intuition lia.
Qed.

(* the iterator never raises: [decide] never answers Raise ([contains_abort_marker] always has an answer); like
   [loop_no_markers] and [loop_position] below this needs no well-formedness of the batches *)
Lemma loop_never_raises : forall i bs q ap nfo, raised (unpack_loop i bs q ap nfo) = false.
Proof.
  induction bs as [|b bs IH]; intros q ap nfo; [reflexivity|].
  destruct (decide_cases i b q ap) as (q' & ap' & [D|(D & _)]).
  - rewrite (loop_skip _ _ _ _ _ _ _ _ D). apply IH.
  - rewrite (loop_deliver _ _ _ _ _ _ _ _ D). apply IH.
Qed.

Lemma unpack_never_raises : forall i f idx bs, raised (unpack i f idx bs) = false.
Proof. intros. apply loop_never_raises. Qed.

Lemma loop_no_markers : forall i bs q ap nfo r,
  In r (delivered (unpack_loop i bs q ap nfo)) ->
  exists b, In b bs /\ b_ctl b = false /\ In r (b_recs b).
Proof.
  induction bs as [|b bs IH]; intros q ap nfo r I; [cbn in I; contradiction|].
  assert (Hrest : forall q' ap', In r (delivered (unpack_loop i bs q' ap' (b_next b))) ->
                  exists x, In x (b :: bs) /\ b_ctl x = false /\ In r (b_recs x)).
  { intros q' ap' I'. destruct (IH _ _ _ _ I') as (x & Ix & R).
    exists x. split; [right; exact Ix|exact R]. }
  destruct (decide_cases i b q ap) as (q' & ap' & [D|(D & C)]).
  - rewrite (loop_skip _ _ _ _ _ _ _ _ D) in I. exact (Hrest _ _ I).
  - rewrite (loop_deliver _ _ _ _ _ _ _ _ D) in I. unfold delivered at 1 in I. cbn [fst] in I.
    apply in_app_or in I. destruct I as [I|I]; [|exact (Hrest _ _ I)].
    exists b. split; [left; reflexivity|]. split; [exact C|eapply take_recs_sub; exact I].
Qed.

Lemma loop_position : forall i bs q ap nfo,
  position (unpack_loop i bs q ap nfo) =
  match bs with [] => nfo | _ => b_next (last bs (mkbatch 0 0 0 false false [])) end.
Proof.
  induction bs as [|b bs IH]; intros q ap nfo; [reflexivity|].
  destruct (decide_cases i b q ap) as (q' & ap' & [D|(D & _)]).
  - rewrite (loop_skip _ _ _ _ _ _ _ _ D), IH. destruct bs; reflexivity.
  - rewrite (loop_deliver _ _ _ _ _ _ _ _ D). unfold position at 1. cbn [fst snd].
    rewrite IH. destruct bs; reflexivity.
Qed.

(* the one case in which [rc_block] would answer Raise: a control batch without a record, at read_committed.
   [contains_abort_marker] answers [Some false] there, so the hypothesis cannot be met ([loop_never_raises]) *)
Lemma loop_raised : forall i bs q ap nfo,
  raised (unpack_loop i bs q ap nfo) = true ->
  i = RC /\ exists b, In b bs /\ b_ctl b = true /\ b_recs b = [].
Proof. intros i bs q ap nfo R. rewrite loop_never_raises in R. discriminate. Qed.

Definition in_range (f bnd : Z) (b : batch) : bool := (f <=? b_last b) && (b_last b <? bnd).

Lemma response_prefix : forall s bnd f k,
  filter (in_range f bnd) (batches s) =
  response s bnd f k ++ skipn k (filter (in_range f bnd) (batches s)).
Proof. intros. symmetry. apply firstn_skipn. Qed.

Lemma in_range_prefix : forall s bnd f resp post b,
  filter (in_range f bnd) (batches s) = resp ++ post ->
  In b resp -> In b (batches s) /\ f <= b_last b < bnd.
Proof.
  intros s bnd f resp post b E I.
  assert (I' : In b (filter (in_range f bnd) (batches s))).
  { rewrite E. apply in_or_app. left. exact I. }
  apply filter_In in I'. unfold in_range in I'. split; [tauto|lia].
Qed.

Lemma response_in : forall s bnd f k b,
  In b (response s bnd f k) -> In b (batches s) /\ f <= b_last b < bnd.
Proof. intros s bnd f k b. exact (in_range_prefix _ _ _ _ _ b (response_prefix s bnd f k)). Qed.

Section Loop.
  Variable s : lstate.
  Hypothesis Hinv : inv s.
  Variables (i : iso) (f bnd : Z) (resp : list batch).
  Hypothesis Hsorted : StronglySorted before resp.
  Hypothesis Hresp : forall b, In b resp -> In b (batches s) /\ f <= b_last b < bnd.
  (* what holds of the queue and the producer set between two turns, indexed by the base offset
     of the last batch handled (-1 before the first) *)
  Variable J : Z -> list (Z * Z) -> list Z -> Prop.
  Hypothesis turn : forall g done b todo q ap,
    resp = done ++ b :: todo -> (forall x, In x done -> b_base x <= g) -> g < b_base b -> J g q ap ->
    exists q' ap', decide i b q ap = (q', ap', if deliverable s i b then Deliver else Skip) /\
                   J (b_base b) q' ap'.

  Lemma loop_exact : forall todo done g q ap nfo,
    resp = done ++ todo ->
    (forall x, In x done -> b_base x <= g) -> (forall x, In x todo -> g < b_base x) ->
    J g q ap ->
    (forall b r, In b todo -> In r (b_recs b) -> (nfo <= r_off r <-> f <= r_off r)) ->
    delivered (unpack_loop i todo q ap nfo) = view_of s i f bnd todo.
  Proof.
    induction todo as [|b todo IH]; intros done g q ap nfo E Hd Ht Hj Hn; [reflexivity|].
    pose proof (Ht b (or_introl eq_refl)) as Hgb.
    destruct (turn g done b todo q ap E Hd Hgb Hj) as (q' & ap' & D & Hj').
    assert (Hin : forall x, In x (b :: todo) -> In x (batches s) /\ f <= b_last x < bnd).
    { intros x Ix. apply Hresp. rewrite E. apply in_or_app. right. exact Ix. }
    destruct (Hin b (or_introl eq_refl)) as (Ilog & Bf & Bb).
    assert (Hafter : forall x, In x todo -> b_last b < b_base x).
    { pose proof Hsorted as S. rewrite E in S. apply ss_app_r in S.
      inversion S as [|? ? _ F]; subst. rewrite Forall_forall in F. exact F. }
    assert (Hnext : delivered (unpack_loop i todo q' ap' (b_next b)) = view_of s i f bnd todo).
    { apply (IH (done ++ [b]) (b_base b)).
      - rewrite E, <- app_assoc. reflexivity.
      - intros x Ix. apply in_app_or in Ix. destruct Ix as [Ix|[<-|[]]]; [|lia].
        specialize (Hd x Ix). lia.
      - intros x Ix. specialize (Hafter x Ix). pose proof (batch_span s Hinv b Ilog). lia.
      - exact Hj'.
      - intros x r Ix Ir. specialize (Hafter x Ix).
        pose proof (batch_recs s Hinv x r (proj1 (Hin x (or_intror Ix))) Ir). unfold b_next. lia. }
    cbn [view_of flat_map]. fold (view_of s i f bnd todo). destruct (deliverable s i b).
    - rewrite (loop_deliver _ _ _ _ _ _ _ _ D). unfold delivered at 1. cbn [fst]. rewrite Hnext.
      f_equal. destruct (batch_in_ok s Hinv b Ilog) as ((_ & Brecs & _) & _).
      exact (take_recs_range _ _ _ nfo f bnd Brecs Bb (fun r => Hn b r (or_introl eq_refl))).
    - rewrite (loop_skip _ _ _ _ _ _ _ _ D). exact Hnext.
  Qed.

  Lemma unpack_exact : forall idx, J (-1) (sort_by_first idx) [] ->
    delivered (unpack i f idx resp) = view_of s i f bnd resp.
  Proof.
    intros idx Hj. apply (loop_exact resp [] (-1)); [reflexivity|intros x []| |exact Hj|tauto].
    intros x Ix. pose proof (batch_span s Hinv x (proj1 (Hresp x Ix))). lia.
  Qed.
End Loop.

(* read_uncommitted: a turn delivers exactly the data batches, whatever index is passed *)
Lemma ru_exact_sorted : forall s, inv s -> forall f resp idx,
  StronglySorted before resp ->
  (forall b, In b resp -> In b (batches s) /\ f <= b_last b < hw s) ->
  delivered (unpack RU f idx resp) = view_of s RU f (hw s) resp.
Proof.
  intros s Hinv f resp idx St Hresp.
  apply (unpack_exact s Hinv RU f (hw s) resp St Hresp (fun _ _ _ => True)); [|exact I].
  intros g done b todo q ap _ _ _ _. exists q, ap. split; [|exact I].
  rewrite decide_ru. unfold deliverable. destruct (b_ctl b); reflexivity.
Qed.

Section RCProof.
  Variable s : lstate.
  Hypothesis Hinv : inv s.
  Variables (f : Z) (idx : list (Z * Z)) (resp post : list batch).
  Hypothesis Hprefix : filter (in_range f (lso s)) (batches s) = resp ++ post.
  Hypothesis Hidx : index_ok s f resp idx.

  Lemma resp_in : forall b, In b resp -> In b (batches s) /\ f <= b_last b < lso s.
  Proof. intros b. exact (in_range_prefix _ _ _ _ _ b Hprefix). Qed.

  Lemma prefix_sorted : StronglySorted before (resp ++ post).
  Proof. rewrite <- Hprefix. apply ss_filter, batches_sorted, Hinv. Qed.

  (* producer p has an aborted transaction of the index that started at or before offset g and
     whose marker lies after g ([apf]: what aborted_producers must hold once the batch at g has been
     handled), at or after g ([apc]: what it holds after _consume_aborted_up_to(g), before the discard) *)
  Definition apf (g p : Z) : Prop :=
    exists t, In t (dne s) /\ In (t_pid t, t_first t) idx /\ t_pid t = p /\
              t_first t <= g < t_last t.
  Definition apc (g p : Z) : Prop :=
    exists t, In t (dne s) /\ In (t_pid t, t_first t) idx /\ t_pid t = p /\
              t_first t <= g <= t_last t.

  Definition rc_inv (g : Z) (q : list (Z * Z)) (ap : list Z) : Prop :=
    q_sorted q /\ (forall e, In e q <-> In e idx /\ g < snd e) /\
    (forall p, ap_mem p ap = true <-> apf g p).

  Lemma idx_txn : forall t, In t (dne s) -> In (t_pid t, t_first t) idx ->
    t_commit t = false /\ f <= t_last t.
  Proof.
    intros t I J. destruct (proj1 Hidx _ J) as (t' & I' & C & E & L).
    injection E as P F. rewrite (txn_key_unique s Hinv t t' I I' P F). auto.
  Qed.

  Lemma idx_entry : forall e, In e idx -> exists t, In t (dne s) /\ e = (t_pid t, t_first t).
  Proof. intros e J. destruct (proj1 Hidx _ J) as (t & I & _ & E & _). eauto. Qed.

  Lemma marker_in_log : forall t, In t (dne s) ->
    In (marker_batch (t_last t) (t_pid t) (t_commit t)) (batches s).
  Proof. intros. apply batches_in. apply (i_done_marker s Hinv). assumption. Qed.

  (* membership in the producer set decides: a transactional data batch of the answer is
     skipped iff its transaction aborted *)
  Lemma rc_decision : forall b ap2, In b resp ->
    (forall p, ap_mem p ap2 = true <-> apf (b_base b) p) ->
    b_ctl b || b_txn b && ap_mem (b_pid b) ap2 = negb (deliverable s RC b).
  Proof.
    intros b ap2 Ib Hap2. unfold deliverable. destruct (b_ctl b) eqn:C; [reflexivity|].
    destruct (b_txn b) eqn:Tx; [|reflexivity]. cbn [negb andb orb].
    assert (Dt : is_data_txn b = true) by (unfold is_data_txn; rewrite Tx, C; reflexivity).
    destruct (resp_in b Ib) as (Ilog & _ & Lb).
    rewrite (below_lso_committed s Hinv b Ilog Lb Dt), negb_involutive.
    apply eq_true_iff_eq. rewrite Hap2. unfold aborted. rewrite Dt. cbn [andb].
    rewrite existsb_exists. split.
    - intros (t & It & Jt & Pt & Rt). exists t. split; [exact It|].
      rewrite (proj1 (idx_txn t It Jt)). unfold spans. clear - Pt Rt. lia.
    - intros (t & It & Ct). apply andb_prop in Ct. destruct Ct as (Sp & Nc).
      exists t. split; [exact It|]. unfold spans in Sp. split; [|clear - Sp; lia].
      apply (proj2 Hidx t b); auto. destruct (t_commit t); [discriminate|reflexivity].
  Qed.

  (* one turn: the next batch is b, the last one handled had base offset g *)
  Section Turn.
    Variables (g : Z) (done : list batch) (b : batch) (todo : list batch).
    Variables (q : list (Z * Z)) (ap : list Z).
    Hypothesis Hr : resp = done ++ b :: todo.
    Hypothesis Hd : forall x, In x done -> b_base x <= g.
    Hypothesis Hgb : g < b_base b.
    Hypothesis Hqs : q_sorted q.
    Hypothesis Hq : forall e, In e q <-> In e idx /\ g < snd e.
    Hypothesis Hap : forall p, ap_mem p ap = true <-> apf g p.

    (* the producer set after _consume_aborted_up_to(b.base_offset), and after the discard *)
    Let ap1 := q_take (b_base b) q ++ ap.
    Let ap2 := if is_abort b then ap_discard (b_pid b) ap1 else ap1.

    Lemma turn_resp : In b resp.
    Proof. rewrite Hr. apply in_or_app. right. left. reflexivity. Qed.

    Lemma turn_log : In b (batches s).
    Proof. exact (proj1 (resp_in b turn_resp)). Qed.

    (* contiguity: the marker of an index transaction not yet finished at g is b or comes later *)
    Lemma turn_cont : forall t, In t (dne s) -> In (t_pid t, t_first t) idx -> g < t_last t ->
      b_base b <= t_last t.
    Proof.
      intros t It Jt Lg. destruct (idx_txn t It Jt) as (_ & Lf).
      destruct (Z_lt_le_dec (t_last t) (b_base b)) as [Lt|]; [exfalso|assumption].
      destruct (resp_in b turn_resp) as (Ilog & _ & Lb).
      pose proof (batch_span s Hinv b Ilog) as Sb. pose proof prefix_sorted as S.
      (* a marker between f and b is among the batches the answer is a prefix of *)
      assert (Im : In (marker_batch (t_last t) (t_pid t) (t_commit t)) (resp ++ post)).
      { rewrite <- Hprefix. apply filter_In. split; [exact (marker_in_log t It)|].
        unfold in_range. cbn. lia. }
      rewrite Hr, <- app_assoc in Im, S. apply ss_app_r in S.
      inversion S as [|? ? _ F]; subst. rewrite Forall_forall in F.
      apply in_app_or in Im. destruct Im as [Im|[Eb|Im]].
      - specialize (Hd _ Im). cbn in Hd. lia.
      - rewrite Eb in Lt. cbn in Lt. lia.
      - specialize (F _ Im). unfold before in F. cbn in F. lia.
    Qed.

    (* an index transaction that ends at b: b is its abort marker *)
    Lemma turn_ends : forall t, In t (dne s) -> In (t_pid t, t_first t) idx ->
      t_last t = b_base b -> is_abort b = true /\ b_pid b = t_pid t.
    Proof.
      intros t It Jt E. pose proof (batch_span s Hinv b turn_log) as Sb.
      rewrite (overlap_same_batch s Hinv b _ (b_base b) turn_log (marker_in_log t It)),
        (proj1 (idx_txn t It Jt)); [split; reflexivity|lia|cbn; lia].
    Qed.

    Lemma ap1_spec : forall p, ap_mem p ap1 = true <-> apc (b_base b) p.
    Proof.
      intros p. unfold ap1, apc. rewrite ap_mem_app, (q_take_sorted _ _ _ Hqs), Hap. split.
      - intros [(e & Ie & Fe & Se)|(t & It & Jt & Pt & Rt)].
        + apply Hq in Ie. destruct Ie as (Je & Ge).
          destruct (idx_entry e Je) as (t & It & ->). cbn in *.
          exists t. repeat split; auto. apply turn_cont; auto.
          pose proof (i_done_range s Hinv t It). lia.
        + exists t. repeat split; auto; [lia|]. apply turn_cont; auto. lia.
      - intros (t & It & Jt & Pt & Rt).
        destruct (Z_le_gt_dec (t_first t) g) as [Le|Gt].
        + right. exists t. repeat split; auto. lia.
        + left. exists (t_pid t, t_first t). cbn. repeat split; auto; [|lia].
          apply Hq. cbn. split; [exact Jt|lia].
    Qed.

    (* an abort marker ends the aborted state of its producer, and of nobody else *)
    Lemma ap2_spec : forall p, ap_mem p ap2 = true <-> apf (b_base b) p.
    Proof.
      intros p. transitivity (apc (b_base b) p /\ (is_abort b = true -> p <> b_pid b)).
      - unfold ap2. destruct (is_abort b); [rewrite ap_mem_discard|]; rewrite ap1_spec;
          intuition congruence.
      - split.
        + intros ((t & It & Jt & Pt & Rt) & Na). exists t. repeat split; auto; [lia|].
          destruct (Z.eq_dec (t_last t) (b_base b)) as [E|]; [exfalso|lia].
          destruct (turn_ends t It Jt E) as (A & Pb). apply (Na A). congruence.
        + intros (t & It & Jt & Pt & Rt). split; [exists t; repeat split; auto; lia|].
          (* a marker of p does not lie inside a finished transaction of p *)
          intros A ->. apply andb_prop in A. destruct A as (C & _).
          pose proof (proj1 (i_ctl s Hinv b (proj1 (batches_in s b) turn_log) C) t It Pt). lia.
    Qed.

    Lemma rc_turn : exists q' ap',
      decide RC b q ap = (q', ap', if deliverable s RC b then Deliver else Skip) /\
      rc_inv (b_base b) q' ap'.
    Proof.
      exists (q_drop (b_base b) q), ap2. split.
      - rewrite decide_rc_set. fold ap1 ap2. rewrite (rc_decision b ap2 turn_resp ap2_spec).
        destruct (deliverable s RC b); reflexivity.
      - split; [apply q_drop_keeps_sorted; exact Hqs|]. split; [|exact ap2_spec].
        intros e. rewrite (q_drop_sorted _ _ _ Hqs), Hq. intuition lia.
    Qed.
  End Turn.

  Lemma rc_exact_split : delivered (unpack RC f idx resp) = view_of s RC f (lso s) resp.
  Proof.
    apply (unpack_exact s Hinv RC f (lso s) resp) with (J := rc_inv).
    - exact (ss_app_l _ _ _ prefix_sorted).
    - exact resp_in.
    - intros g done b todo q ap E Hd Hg (Hqs & Hq & Hap). eapply rc_turn; eassumption.
    - split; [apply sort_sorted|]. split.
      + intros e. rewrite sort_in. split; [|tauto]. intros J. split; [exact J|].
        destruct (idx_entry e J) as (t & It & ->). cbn. pose proof (i_done_range s Hinv t It). lia.
      + intros p. cbn. split; [discriminate|]. intros (t & It & _ & _ & R).
        pose proof (i_done_range s Hinv t It). lia.
  Qed.
End RCProof.

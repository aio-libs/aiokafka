(* C04: the invariant of model/Offsets.v behind at-least-once delivery; the statements of props/C04.v are read off it. *)
From Coq Require Import List Bool Arith Lia.
From Verif Require Import Offsets.
Import ListNotations.

Lemma lookup_update_eq k v l : lookup k (update k v l) = Some v.
Proof.
  induction l as [|[k' v'] tl IH]; cbn.
  - rewrite Nat.eqb_refl. reflexivity.
  - destruct (Nat.eqb k k') eqn:E; cbn; rewrite ?Nat.eqb_refl; [reflexivity|]. rewrite E. exact IH.
Qed.

Lemma lookup_update_neq k k2 v l : k2 <> k -> lookup k2 (update k v l) = lookup k2 l.
Proof.
  intros Hne. induction l as [|[k' v'] tl IH]; cbn.
  - destruct (Nat.eqb k2 k) eqn:E; [apply Nat.eqb_eq in E; congruence|reflexivity].
  - destruct (Nat.eqb k k') eqn:E; cbn.
    + apply Nat.eqb_eq in E. subst k'.
      destruct (Nat.eqb k2 k) eqn:E2; [apply Nat.eqb_eq in E2; congruence|reflexivity].
    + destruct (Nat.eqb k2 k'); [reflexivity|exact IH].
Qed.

(* the incarnations after an update are the updated one and the old ones *)
Lemma lookup_update_inv k v l j x : lookup j (update k v l) = Some x -> (j = k /\ x = v) \/ lookup j l = Some x.
Proof.
  intros H. destruct (Nat.eq_dec j k) as [->|Hne].
  - rewrite lookup_update_eq in H. injection H as <-. left. auto.
  - rewrite lookup_update_neq in H by exact Hne. right. exact H.
Qed.

Record Inv (s : st) : Prop := {
  (* every offset below the committed offset has been handed to the application *)
  i_comm : forall c o, committed s = Some c -> o < c -> In o (delivered s);
  (* so has every offset below the position of an incarnation: it delivered [start, pos) itself, and what lies
     below its start had been delivered before it took over *)
  i_inc : forall i x, lookup i (incs s) = Some x ->
          (forall o, o < i_pos x -> In o (delivered s)) /\ i_start x <= i_pos x <= hw s;
  i_chw : forall c, committed s = Some c -> c <= hw s
}.

Lemma inv_init : Inv init.
Proof. constructor; cbn; intros; try discriminate. Qed.

Lemma step_inv s e s' : Inv s -> step s e = Some s' -> Inv s'.
Proof.
  intros [Ic Ii Ih] H. destruct e; cbn [step] in H.
  - (* Append *) injection H as <-. constructor; cbn [committed incs delivered hw].
    + exact Ic.
    + intros i x Hx. destruct (Ii i x Hx) as [A B]. split; [exact A | lia].
    + intros c Hc. specialize (Ih c Hc). lia.
  - (* Takeover *) destruct (lookup i (incs s)) eqn:El; [discriminate|]. injection H as <-.
    constructor; cbn [committed incs delivered hw]; [exact Ic | | exact Ih].
    intros j x Hj. destruct (lookup_update_inv _ _ _ _ _ Hj) as [[_ ->]|Hj']; [|exact (Ii j x Hj')]. cbn [i_start i_pos].
    destruct (committed s) as [c|] eqn:Ec.
    + split; [intros o; apply Ic; reflexivity|]. specialize (Ih c eq_refl). lia.
    + split; lia.
  - (* Deliver *) destruct (lookup i (incs s)) as [x|] eqn:El; [|discriminate].
    destruct (i_alive x && Nat.eqb o (i_pos x) && (o <? hw s)) eqn:Eg; [|discriminate].
    injection H as <-.
    apply andb_true_iff in Eg. destruct Eg as (Eg & Hlt). apply andb_true_iff in Eg. destruct Eg as (_ & Heq).
    apply Nat.eqb_eq in Heq. apply Nat.ltb_lt in Hlt. subst o. destruct (Ii i x El) as [Hx Hord].
    constructor; cbn [committed incs delivered hw]; [| | exact Ih].
    + intros c o Hc Ho. right. eapply Ic; eassumption.
    + intros j y Hj. destruct (lookup_update_inv _ _ _ _ _ Hj) as [[_ ->]|Hj'].
      * cbn [i_start i_pos]. split; [|lia]. intros o Ho. destruct (Nat.eq_dec o (i_pos x)) as [->|Hn]; [left; reflexivity|].
        right. apply Hx. lia.
      * destruct (Ii j y Hj') as [A B]. split; [intros o Ho; right; exact (A o Ho) | exact B].
  - (* Commit *) destruct (lookup i (incs s)) as [x|] eqn:El; [|discriminate].
    destruct ((i_start x <=? off) && (off <=? i_pos x)) eqn:Eg; [|discriminate]. injection H as <-.
    apply andb_true_iff in Eg. destruct Eg as (H1 & H2). apply Nat.leb_le in H1, H2. destruct (Ii i x El) as [Hx Hord].
    constructor; cbn [committed incs delivered hw]; [| exact Ii |].
    + intros c o Hc Ho. injection Hc as <-. apply Hx. lia.
    + intros c Hc. injection Hc as <-. lia.
  - (* Release *) destruct (lookup i (incs s)) as [x|] eqn:El; [|discriminate]. injection H as <-.
    constructor; cbn [committed incs delivered hw]; [exact Ic | | exact Ih].
    intros j y Hj. destruct (lookup_update_inv _ _ _ _ _ Hj) as [[_ ->]|Hj']; [exact (Ii i x El) | exact (Ii j y Hj')].
Qed.

Lemma run_inv : forall tr s s', Inv s -> run s tr = Some s' -> Inv s'.
Proof.
  induction tr as [|e tr IH]; intros s s' I H; cbn [run] in H.
  - injection H as <-. exact I.
  - destruct (step s e) as [s1|] eqn:E; [|discriminate]. eapply IH; [eapply step_inv; eassumption|exact H].
Qed.

(* C08_main.v — the C08 theorems over logs that satisfy the invariant of [build]: exactness at
   both isolation levels, no markers, position, cut invariance; the broker's index satisfies
   the index hypothesis.  props/C08.v instantiates them with [build_inv]. *)
From Coq Require Import ZArith List Bool Lia ZifyBool Sorted.
From Verif Require Import Imp ConsumeAborted C08_Log C08_consume C08_wf C08_unpack.
Import ListNotations.
Open Scope Z_scope.

Definition dummy_batch : batch := mkbatch 0 0 0 false false [].
Definition end_of (f : Z) (resp : list batch) : Z :=
  match resp with [] => f | _ => b_next (last resp dummy_batch) end.

Lemma end_of_nonempty : forall f resp, resp <> [] -> end_of f resp = b_next (last resp dummy_batch).
Proof. intros f resp N. destruct resp; [congruence|reflexivity]. Qed.

Lemma last_in : forall (l : list batch) d, l <> [] -> In (last l d) l.
Proof.
  induction l as [|x l IH]; intros d N; [congruence|]. destruct l as [|y l]; [left; reflexivity|].
  right. apply IH. discriminate.
Qed.

Lemma sorted_last_max : forall l d b, StronglySorted before l ->
  (forall x, In x l -> b_base x <= b_last x) -> In b l -> b_last b <= b_last (last l d).
Proof.
  intros l d b S Ok I.
  destruct (exists_last (l := l)) as (l' & x & ->); [intros ->; contradiction|].
  rewrite last_last. apply in_app_or in I. destruct I as [I|[<-|[]]]; [|lia].
  pose proof (ss_app_cross _ _ _ _ _ S I (or_introl eq_refl)) as B. unfold before in B.
  pose proof (Ok x (in_or_app l' [x] x (or_intror (or_introl eq_refl)))). lia.
Qed.

Lemma filter_filter {A} (p q : A -> bool) : forall l,
  filter p (filter q l) = filter (fun x => p x && q x) l.
Proof.
  induction l as [|x l IH]; [reflexivity|]. cbn. destruct (q x); cbn.
  - rewrite andb_true_r. destruct (p x); cbn; rewrite IH; reflexivity.
  - rewrite andb_false_r. exact IH.
Qed.

Section Views.
  Variables (s : lstate) (i : iso).

  Lemma view_of_app : forall lo hi l1 l2,
    view_of s i lo hi (l1 ++ l2) = view_of s i lo hi l1 ++ view_of s i lo hi l2.
  Proof. intros. unfold view_of. apply flat_map_app. Qed.

  Lemma view_of_ext : forall lo hi lo' hi' l,
    (forall b r, In b l -> In r (b_recs b) ->
       ((lo <=? r_off r) && (r_off r <? hi)) = ((lo' <=? r_off r) && (r_off r <? hi'))) ->
    view_of s i lo hi l = view_of s i lo' hi' l.
  Proof.
    induction l as [|b l IH]; intros Hn; [reflexivity|]. cbn [view_of flat_map].
    fold (view_of s i lo hi l) (view_of s i lo' hi' l).
    rewrite IH by (intros; eapply Hn; [right|]; eassumption). f_equal.
    destruct (deliverable s i b); [|reflexivity].
    apply filter_ext_in. intros r Ir. exact (Hn b r (or_introl eq_refl) Ir).
  Qed.

  Lemma view_of_nil : forall lo hi l,
    (forall b r, In b l -> In r (b_recs b) -> ((lo <=? r_off r) && (r_off r <? hi)) = false) ->
    view_of s i lo hi l = [].
  Proof.
    induction l as [|b l IH]; intros Hn; [reflexivity|]. cbn [view_of flat_map].
    fold (view_of s i lo hi l). rewrite IH by (intros; eapply Hn; [right|]; eassumption).
    rewrite app_nil_r. destruct (deliverable s i b); [|reflexivity].
    apply filter_none. intros r Ir. exact (Hn b r (or_introl eq_refl) Ir).
  Qed.

  Lemma view_skip_below : forall f hi l,
    (forall b, In b l -> batch_ok b) ->
    view_of s i f hi l = view_of s i f hi (filter (fun b => f <=? b_last b) l).
  Proof.
    intros f hi. induction l as [|b l IH]; intros Ok; [reflexivity|].
    cbn [filter view_of flat_map]. fold (view_of s i f hi l).
    rewrite IH by (intros; apply Ok; right; assumption).
    destruct (f <=? b_last b) eqn:E; [reflexivity|].
    destruct (deliverable s i b); [|reflexivity].
    rewrite filter_none; [reflexivity|]. intros r Ir.
    destruct (Ok b (or_introl eq_refl)) as (_ & Rb & _). pose proof (recs_ok_in _ _ _ _ Rb Ir). lia.
  Qed.

  (* the view of the log from f on is the view of what a fetch at f can be answered with *)
  Lemma view_from : forall f hi, inv s ->
    view s i f hi = view_of s i f hi (filter (in_range f (bound s i)) (batches s)).
  Proof.
    intros f hi H. unfold view. rewrite view_skip_below, filter_filter; [reflexivity|].
    intros b Ib. apply filter_In in Ib. exact (proj1 (batch_in_ok s H b (proj1 Ib))).
  Qed.
End Views.

Lemma view_of_in : forall s i lo hi l r,
  In r (view_of s i lo hi l) <->
  exists b, In b l /\ deliverable s i b = true /\ In r (b_recs b) /\ lo <= r_off r < hi.
Proof.
  intros. unfold view_of. rewrite in_flat_map. split.
  - intros (b & Ib & Ir). exists b. destruct (deliverable s i b); [|contradiction].
    apply filter_In in Ir. repeat split; try tauto; lia.
  - intros (b & Ib & D & Ir & L). exists b. split; [exact Ib|]. rewrite D.
    apply filter_In. split; [exact Ir|lia].
Qed.

Lemma resp_sorted : forall s bnd f k, inv s -> StronglySorted before (response s bnd f k).
Proof.
  intros s bnd f k H. unfold response. eapply ss_app_l. erewrite firstn_skipn.
  apply ss_filter, batches_sorted, H.
Qed.

Lemma fetch_exact : forall s, inv s -> forall i f k idx,
  index_req s i f (response s (bound s i) f k) idx ->
  delivered (unpack i f idx (response s (bound s i) f k)) =
    view_of s i f (bound s i) (response s (bound s i) f k).
Proof.
  intros s Hinv i f k idx Hidx. destruct i.
  - apply ru_exact_sorted; [exact Hinv|apply resp_sorted; exact Hinv|apply response_in].
  - exact (rc_exact_split s Hinv f idx _ _ (response_prefix s (lso s) f k) Hidx).
Qed.

Lemma fetch_spec : forall s, inv s -> forall i f k idx,
  index_req s i f (response s (bound s i) f k) idx ->
  raised (unpack i f idx (response s (bound s i) f k)) = false /\
  delivered (unpack i f idx (response s (bound s i) f k)) =
    view_of s i f (bound s i) (response s (bound s i) f k) /\
  (forall r, In r (delivered (unpack i f idx (response s (bound s i) f k))) <->
     exists b, In b (response s (bound s i) f k) /\ deliverable s i b = true /\
               In r (b_recs b) /\ f <= r_off r) /\
  (forall r, In r (delivered (unpack i f idx (response s (bound s i) f k))) ->
     r_off r < bound s i).
Proof.
  intros s H i f k idx Hidx. pose proof (fetch_exact s H i f k idx Hidx) as D.
  split; [apply unpack_never_raises|]. split; [exact D|]. rewrite D. split.
  - intros r. rewrite view_of_in. split.
    + intros (b & Ib & Dl & Ir & L). exists b. intuition.
    + intros (b & Ib & Dl & Ir & L). exists b. repeat split; auto.
      (* a record of a batch that ends below the bound *)
      destruct (response_in _ _ _ _ b Ib) as (Ilog & _ & Lb).
      pose proof (batch_recs s H b r Ilog Ir). lia.
  - intros r Ir. apply view_of_in in Ir. destruct Ir as (_ & _ & _ & _ & L). lia.
Qed.

Lemma deliverable_rc : forall s b,
  deliverable s RC b = true <-> b_ctl b = false /\ (b_txn b = false \/ committed s b = true).
Proof.
  intros. unfold deliverable. destruct (b_ctl b), (b_txn b), (committed s b); cbn; intuition congruence.
Qed.

Lemma deliverable_ru : forall s b, deliverable s RU b = true <-> b_ctl b = false.
Proof. intros. unfold deliverable. destruct (b_ctl b); cbn; intuition congruence. Qed.

Lemma no_marker_offsets : forall s, inv s -> forall i f k idx r c,
  In r (delivered (unpack i f idx (response s (bound s i) f k))) ->
  In c (batches s) -> b_ctl c = true -> r_off r <> b_base c.
Proof.
  intros s H i f k idx r c Ir Ic Cc E.
  destruct (loop_no_markers _ _ _ _ _ _ Ir) as (b & Ib & Cb & Irb).
  pose proof (proj1 (response_in _ _ _ _ b Ib)) as Ilog.
  pose proof (batch_recs s H b r Ilog Irb). pose proof (batch_span s H c Ic).
  assert (b = c) by (apply (overlap_same_batch s H b c (r_off r)); auto; lia).
  congruence.
Qed.

Section OneFetch.
  Variable s : lstate.
  Hypothesis Hinv : inv s.
  Variables (i : iso) (f : Z) (k : nat) (idx : list (Z * Z)).
  Local Notation resp := (response s (bound s i) f k).

  Lemma fetch_position : position (unpack i f idx resp) = end_of f resp.
  Proof. unfold unpack. apply loop_position. Qed.

  Lemma resp_span : forall b, In b resp -> b_base b <= b_last b.
  Proof. intros b I. pose proof (batch_span s Hinv b (proj1 (response_in _ _ _ _ b I))). lia. Qed.

  Lemma fetch_past_everything : forall b, In b resp ->
    b_last b < position (unpack i f idx resp) /\ f < position (unpack i f idx resp).
  Proof.
    intros b I. rewrite fetch_position, end_of_nonempty by (intros E; rewrite E in I; exact I).
    pose proof (sorted_last_max resp dummy_batch b (resp_sorted s _ f k Hinv) resp_span I) as M.
    destruct (response_in _ _ _ _ b I) as (_ & Lf & _). unfold b_next. lia.
  Qed.

  Lemma fetch_monotone : f <= position (unpack i f idx resp).
  Proof.
    rewrite fetch_position. unfold end_of. destruct resp as [|x l] eqn:E; [lia|]. rewrite <- E.
    assert (I : In x resp) by (rewrite E; left; reflexivity).
    pose proof (proj2 (fetch_past_everything x I)) as P.
    rewrite fetch_position, end_of_nonempty in P by (rewrite E; discriminate). lia.
  Qed.

  Hypothesis Hidx : index_req s i f resp idx.

  Lemma fetch_is_view :
    delivered (unpack i f idx resp) = view s i f (position (unpack i f idx resp)).
  Proof.
    rewrite (fetch_exact s Hinv i f k idx Hidx), fetch_position, (view_from s i f _ Hinv).
    pose proof (response_prefix s (bound s i) f k) as E.
    pose proof (ss_filter before (in_range f (bound s i)) _ (batches_sorted s Hinv)) as S.
    rewrite E in S |- *. set (post := skipn k _) in *.
    rewrite view_of_app, (view_of_nil s i f (end_of f resp) post), app_nil_r.
    - apply view_of_ext. intros b r Ib Ir.
      destruct (response_in _ _ _ _ b Ib) as (Ilog & _ & Lb).
      pose proof (batch_recs s Hinv b r Ilog Ir).
      pose proof (proj1 (fetch_past_everything b Ib)) as Pb. rewrite fetch_position in Pb. lia.
    - (* the batches after the answer start past its last batch *)
      intros b r Ib Ir.
      assert (Ilog : In b (batches s)).
      { apply (filter_In (in_range f (bound s i))). rewrite E. apply in_or_app. right. exact Ib. }
      pose proof (batch_recs s Hinv b r Ilog Ir). unfold end_of.
      destruct resp as [|x l] eqn:Er; [lia|]. rewrite <- Er in *.
      assert (Il : In (last resp dummy_batch) resp) by (apply last_in; rewrite Er; discriminate).
      pose proof (ss_app_cross _ _ _ _ _ S Il Ib) as Bf.
      unfold before in Bf. unfold b_next. rewrite Er in *. lia.
  Qed.

End OneFetch.

Lemma response_nonempty : forall s bnd f k b,
  In b (batches s) -> f <= b_last b < bnd -> (1 <= k)%nat -> response s bnd f k <> [].
Proof.
  intros s bnd f k b Ib R K. unfold response.
  assert (I : In b (filter (fun b => (f <=? b_last b) && (b_last b <? bnd)) (batches s))).
  { apply filter_In. split; [exact Ib|lia]. }
  destruct (filter _ (batches s)) as [|x l]; [contradiction|].
  destruct k; [lia|]. cbn. discriminate.
Qed.

Lemma position_advances : forall s, inv s -> forall i f k idx,
  (response s (bound s i) f k <> [] ->
     position (unpack i f idx (response s (bound s i) f k)) =
       b_next (last (response s (bound s i) f k) dummy_batch) /\
     f < position (unpack i f idx (response s (bound s i) f k)) /\
     (forall b, In b (response s (bound s i) f k) ->
        b_last b < position (unpack i f idx (response s (bound s i) f k)))) /\
  (response s (bound s i) f k = [] -> position (unpack i f idx (response s (bound s i) f k)) = f) /\
  (forall b, In b (batches s) -> f <= b_last b < bound s i -> (1 <= k)%nat ->
     response s (bound s i) f k <> []).
Proof.
  intros s H i f k idx. pose proof (fetch_position s i f k idx) as P. split; [|split].
  - intros N. split; [rewrite P; apply end_of_nonempty; exact N|]. split.
    + destruct (response s (bound s i) f k) as [|b l] eqn:E; [congruence|]. rewrite <- E in *.
      assert (Ib : In b (response s (bound s i) f k)) by (rewrite E; left; reflexivity).
      exact (proj2 (fetch_past_everything s H i f k idx b Ib)).
    + intros b Ib. exact (proj1 (fetch_past_everything s H i f k idx b Ib)).
  - intros E. rewrite P, E. reflexivity.
  - intros b. apply response_nonempty.
Qed.

(* views compose, so sequences of fetches do *)
Lemma filter_range_compose : forall rs lo hi f n m, recs_ok lo hi rs -> f <= n <= m ->
  filter (fun r => (f <=? r_off r) && (r_off r <? n)) rs ++
  filter (fun r => (n <=? r_off r) && (r_off r <? m)) rs =
  filter (fun r => (f <=? r_off r) && (r_off r <? m)) rs.
Proof.
  induction rs as [|r rs IH]; intros lo hi f n m H L; [reflexivity|].
  destruct H as (B & R). destruct (Z_lt_le_dec (r_off r) n) as [Lt|Ge].
  - cbn [filter]. replace ((n <=? r_off r) && (r_off r <? m)) with false by lia.
    replace ((f <=? r_off r) && (r_off r <? m)) with ((f <=? r_off r) && (r_off r <? n)) by lia.
    destruct ((f <=? r_off r) && (r_off r <? n)); cbn [app]; [f_equal|]; eapply IH; eauto.
  - rewrite (filter_none (fun x => (f <=? r_off x) && (r_off x <? n))).
    2:{ intros x [<-|Ix]; [lia|]. pose proof (recs_ok_in _ _ _ _ R Ix). lia. }
    cbn [app]. apply filter_ext_in. intros x Ix.
    assert (r_off r <= r_off x).
    { destruct Ix as [<-|Ix]; [lia|]. pose proof (recs_ok_in _ _ _ _ R Ix). lia. }
    lia.
Qed.

Lemma view_of_compose : forall s i f n m l,
  StronglySorted before l -> (forall b, In b l -> batch_ok b) -> f <= n <= m ->
  view_of s i f n l ++ view_of s i n m l = view_of s i f m l.
Proof.
  intros s i f n m. induction l as [|b l IH]; intros S Ok L; [reflexivity|].
  inversion S as [|? ? Sl Fb]; subst. rewrite Forall_forall in Fb.
  destruct (Ok b (or_introl eq_refl)) as ((B0 & B1) & Rb & _).
  assert (Ok' : forall x, In x l -> batch_ok x) by (intros; apply Ok; right; assumption).
  cbn [view_of flat_map]. fold (view_of s i f n l) (view_of s i n m l) (view_of s i f m l).
  rewrite <- (IH Sl Ok' L). destruct (deliverable s i b); [|reflexivity].
  rewrite <- (filter_range_compose _ _ _ f n m Rb L).
  (* the middle two of the four pieces change places: one of them is empty *)
  destruct (Z_lt_le_dec (b_last b) n) as [Lt|Ge].
  - rewrite (filter_none (fun r => (n <=? r_off r) && (r_off r <? m))).
    + cbn [app]. rewrite app_nil_r, <- app_assoc. reflexivity.
    + intros r Ir. pose proof (recs_ok_in _ _ _ _ Rb Ir). lia.
  - rewrite (view_of_nil s i f n l).
    + rewrite app_nil_r. apply app_assoc.
    + intros x r Ix Ir. specialize (Fb _ Ix). unfold before in Fb.
      destruct (Ok' x Ix) as (_ & Rx & _). pose proof (recs_ok_in _ _ _ _ Rx Ir). lia.
Qed.

Lemma view_compose : forall s i f n m, inv s -> f <= n <= m ->
  view s i f n ++ view s i n m = view s i f m.
Proof.
  intros s i f n m H L. unfold view. apply view_of_compose; [|intros b Ib|exact L].
  - apply ss_filter. exact (batches_sorted s H).
  - apply filter_In in Ib. exact (proj1 (batch_in_ok s H b (proj1 Ib))).
Qed.

Lemma view_empty : forall s i f, view s i f f = [].
Proof. intros. unfold view. apply view_of_nil. intros. lia. Qed.

(* past the last batch below the bound the view does not grow *)
Lemma view_beyond : forall s i f p, inv s ->
  (forall b, In b (batches s) -> b_last b < bound s i -> b_last b < p) ->
  view s i f p = view s i f (bound s i).
Proof.
  intros s i f p H Hp. unfold view. apply view_of_ext. intros b r Ib Ir.
  apply filter_In in Ib. destruct Ib as (Ib & Lb).
  destruct (batch_in_ok s H b Ib) as ((_ & Rb & _) & _). pose proof (recs_ok_in _ _ _ _ Rb Ir).
  specialize (Hp b Ib ltac:(lia)). lia.
Qed.

Lemma fetch_seq_view : forall s i cuts f, inv s -> cuts_ok s i f cuts ->
  raised (fetch_seq s i f cuts) = false /\
  delivered (fetch_seq s i f cuts) = view s i f (position (fetch_seq s i f cuts)) /\
  f <= position (fetch_seq s i f cuts).
Proof.
  intros s i cuts. induction cuts as [|(k, idx) cuts IH]; intros f H C.
  - cbn. rewrite view_empty. repeat split; lia.
  - cbn [cuts_ok] in C. destruct C as (Ci & Cr).
    cbn [fetch_seq].
    pose proof (fetch_is_view s H i f k idx Ci) as Vz.
    pose proof (fetch_monotone s H i f k idx) as Mz.
    rewrite unpack_never_raises. destruct (IH _ H Cr) as (R' & V' & M').
    unfold raised, delivered, position in *. cbn [fst snd].
    split; [exact R'|]. split; [|lia]. rewrite Vz, V'. apply view_compose; [exact H|lia].
Qed.

Lemma one_fetch_complete : forall s, inv s -> forall i f k idx,
  (List.length (batches s) <= k)%nat ->
  index_req s i f (response s (bound s i) f k) idx ->
  delivered (unpack i f idx (response s (bound s i) f k)) = view s i f (bound s i).
Proof.
  intros s H i f k idx K Hidx. rewrite (fetch_exact s H i f k idx Hidx), (view_from s i f _ H).
  unfold response. rewrite firstn_all2; [reflexivity|].
  pose proof (filter_length_le (fun b => (f <=? b_last b) && (b_last b <? bound s i)) (batches s)). lia.
Qed.

Lemma cuts_equal_one_big_response : forall s, inv s -> forall i f cuts k idx,
  cuts_ok s i f cuts ->
  (forall b, In b (batches s) -> b_last b < bound s i -> b_last b < position (fetch_seq s i f cuts)) ->
  (List.length (batches s) <= k)%nat ->
  index_req s i f (response s (bound s i) f k) idx ->
  delivered (fetch_seq s i f cuts) = delivered (unpack i f idx (response s (bound s i) f k)) /\
  delivered (fetch_seq s i f cuts) = view s i f (bound s i).
Proof.
  intros s H i f cuts k idx C Hp K Hidx.
  destruct (fetch_seq_view s i cuts f H C) as (_ & D & _).
  rewrite (one_fetch_complete s H i f k idx K Hidx), D.
  split; apply view_beyond; assumption.
Qed.

Lemma kafka_index_ok : forall s bnd f k u, inv s ->
  (forall b, In b (response s bnd f k) -> b_base b < u) ->
  index_ok s f (response s bnd f k) (kafka_index s f u).
Proof.
  intros s bnd f k u H Hu. unfold index_ok, kafka_index. split.
  - intros e Ie. apply in_map_iff in Ie. destruct Ie as (t & <- & It).
    apply filter_In in It. destruct It as (It & C). apply in_rev in It.
    exists t. repeat split; auto; [destruct (t_commit t); [discriminate|reflexivity]|lia].
  - intros t b It C Ib D Sp. apply in_map_iff. exists t. split; [reflexivity|].
    apply filter_In. split; [apply in_rev; rewrite rev_involutive; exact It|].
    destruct (response_in _ _ _ _ b Ib) as (Ilog & Lf & _).
    (* b starts before the marker of t, so it ends before it *)
    assert (Lm : b_last b < t_last t).
    { unfold spans in Sp.
      destruct (batches_order s H b _ Ilog (marker_in_log s H t It)) as [->|[L|L]]; cbn in *; lia. }
    specialize (Hu b Ib). unfold spans in Sp. rewrite C. cbn [negb andb]. lia.
Qed.

Lemma index_ok_ext : forall s f resp idx idx',
  (forall e, In e idx <-> In e idx') -> index_ok s f resp idx -> index_ok s f resp idx'.
Proof.
  intros s f resp idx idx' E (A & B). split.
  - intros e I. apply A. apply E. exact I.
  - intros t b It C Ib D Sp. apply E. eauto.
Qed.

Lemma kafka_index_admissible : forall s bnd f k u idx, inv s ->
  (forall b, In b (response s bnd f k) -> b_base b < u) ->
  (forall e, In e (kafka_index s f u) <-> In e idx) ->
  index_ok s f (response s bnd f k) idx.
Proof.
  intros s bnd f k u idx H Hu E. eapply index_ok_ext; [exact E|]. apply kafka_index_ok; assumption.
Qed.

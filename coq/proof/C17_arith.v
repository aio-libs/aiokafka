(* C17_arith.v — the 32-bit arithmetic core: Python's masked unsigned arithmetic equals
   Java's wrapped signed arithmetic modulo 2^32. *)
From Coq Require Import ZArith List Bool Lia ZifyBool.
From Verif Require Import Bits Murmur2Java.
Import ListNotations.
Open Scope Z_scope.

Definition wfbyte (b : Z) : Prop := 0 <= b < 256.
Definition wfb (l : list Z) : Prop := Forall wfbyte l.

Definition MASK : Z := 4294967295.
Definition PM : Z := 1540483477.

(* the Python loop body, as an expression of the previous h and the four bytes *)
Definition umix (h b0 b1 b2 b3 : Z) : Z :=
  let k := (Z.land b0 255) + (Z.shiftl (Z.land b1 255) 8) + (Z.shiftl (Z.land b2 255) 16)
           + (Z.shiftl (Z.land b3 255) 24) in
  let k := Z.land k MASK in
  let k := k * PM in
  let k := Z.land k MASK in
  let k := Z.lxor k (Z.shiftr (k mod 4294967296) 24) in
  let k := Z.land k MASK in
  let k := k * PM in
  let k := Z.land k MASK in
  let h := h * PM in
  let h := Z.land h MASK in
  let h := Z.lxor h k in
  Z.land h MASK.

Definition ufinal (h : Z) : Z :=
  let h := Z.lxor h (Z.shiftr (h mod 4294967296) 13) in
  let h := Z.land h MASK in
  let h := h * PM in
  let h := Z.land h MASK in
  let h := Z.lxor h (Z.shiftr (h mod 4294967296) 15) in
  Z.land h MASK.

Definition utail_sh (n h b : Z) : Z := Z.land (Z.lxor h (Z.shiftl (Z.land b 255) n)) MASK.
Definition utail1 (h b0 : Z) : Z := Z.land (Z.land (Z.lxor h (Z.land b0 255)) MASK * PM) MASK.

(* the Python function over the byte list, in the shape of jtail / jloop *)
Definition utail (h : Z) (tl : list Z) : Z :=
  match tl with
  | [b0; b1; b2] => utail1 (utail_sh 8 (utail_sh 16 h b2) b1) b0
  | [b0; b1] => utail1 (utail_sh 8 h b1) b0
  | [b0] => utail1 h b0
  | _ => h
  end.

Fixpoint uloop (l : list Z) (h : Z) : Z :=
  match l with
  | b0 :: b1 :: b2 :: b3 :: rest => uloop rest (umix h b0 b1 b2 b3)
  | tl => ufinal (utail h tl)
  end.

Lemma u32_s32 x : u32 (s32 x) = u32 x.
Proof. unfold u32, s32. rewrite Zminus_mod_idemp_l. f_equal. lia. Qed.

Lemma u32_idem x : u32 (u32 x) = u32 x.
Proof. apply Z.mod_mod. discriminate. Qed.

Lemma u32_range x : 0 <= u32 x < 4294967296.
Proof. apply Z.mod_pos_bound. reflexivity. Qed.

Lemma u32_small x : 0 <= x < 4294967296 -> u32 x = x.
Proof. apply Z.mod_small. Qed.

Lemma u32_mul a b : u32 (a * b) = u32 (u32 a * u32 b).
Proof. unfold u32. rewrite Z.mul_mod by lia. reflexivity. Qed.

Lemma u32_add a b : u32 (a + b) = u32 (u32 a + u32 b).
Proof. unfold u32. rewrite Z.add_mod by lia. reflexivity. Qed.

Lemma u32_lxor a b : u32 (Z.lxor a b) = Z.lxor (u32 a) (u32 b).
Proof. unfold u32. apply lxor_mod32. Qed.

Lemma u32_jmul a b : u32 (jmul a b) = u32 (u32 a * u32 b).
Proof. unfold jmul. rewrite u32_s32. apply u32_mul. Qed.

Lemma u32_jxor a b : u32 (jxor a b) = Z.lxor (u32 a) (u32 b).
Proof. unfold jxor. rewrite u32_s32. apply u32_lxor. Qed.

Lemma shiftr_small x n : 0 <= n -> 0 <= x < 4294967296 -> 0 <= Z.shiftr x n < 4294967296.
Proof.
  intros Hn Hx. rewrite Z.shiftr_div_pow2 by exact Hn.
  assert (0 < 2 ^ n) by (apply Z.pow_pos_nonneg; lia).
  split; [apply Z.div_pos; lia|].
  apply Z.le_lt_trans with x; [|lia]. apply Z.div_le_upper_bound; [lia|nia].
Qed.

Lemma xorshift_small x n : 0 < n < 32 -> 0 <= x < 4294967296 ->
  0 <= Z.lxor x (Z.shiftr x n) < 4294967296.
Proof.
  intros Hn Hx. apply (lxor_nonneg_lt _ _ 32); [lia|exact Hx|]. apply shiftr_small; [lia|exact Hx].
Qed.

Lemma u32_jushr a n : 0 < n < 32 -> u32 (jushr a n) = Z.shiftr (u32 a) n.
Proof.
  intros Hn. unfold jushr. rewrite u32_s32. apply u32_small, shiftr_small; [lia|apply u32_range].
Qed.

Lemma jand_byte b : wfbyte b -> jand (to_signed_byte b) 255 = b.
Proof.
  unfold wfbyte, jand, to_signed_byte. intros H. rewrite land_255.
  destruct (b <? 128) eqn:E; unfold s32; lia.
Qed.

Lemma land_byte b : wfbyte b -> Z.land b 255 = b.
Proof. unfold wfbyte. intros H. rewrite land_255. lia. Qed.

Lemma u32_jshl a n : 0 <= n -> u32 (jshl a n) = u32 (a * 2 ^ n).
Proof. intros. unfold jshl. rewrite u32_s32, Z.shiftl_mul_pow2 by lia. reflexivity. Qed.

Lemma u32_jadd a b : u32 (jadd a b) = u32 (u32 a + u32 b).
Proof. unfold jadd. rewrite u32_s32. apply u32_add. Qed.

Lemma mask_u32 x : Z.land x MASK = u32 x.
Proof. unfold MASK, u32. apply land_ones32. Qed.

Lemma J_M_PM : J_M = PM. Proof. reflexivity. Qed.

Lemma u32_PM : u32 PM = PM. Proof. reflexivity. Qed.

Lemma u32_mulPM x : u32 (u32 x * u32 PM) = u32 (x * PM).
Proof. rewrite <- u32_mul. reflexivity. Qed.

(* [u32] is pushed through every Java operation ([u32_jmul], [u32_jxor], ...); the word [kp] of the
   four bytes needs no reduction, the bytes sitting in disjoint octets *)
Lemma mix_eq hj b0 b1 b2 b3 :
  wfbyte b0 -> wfbyte b1 -> wfbyte b2 -> wfbyte b3 ->
  umix (u32 hj) b0 b1 b2 b3 =
  u32 (jmix hj (to_signed_byte b0) (to_signed_byte b1) (to_signed_byte b2) (to_signed_byte b3)).
Proof.
  intros H0 H1 H2 H3. unfold umix, jmix. cbv zeta.
  rewrite !jand_byte, !land_byte by assumption.
  rewrite !mask_u32, J_M_PM.
  rewrite !Z.shiftl_mul_pow2 by lia.
  set (kj := jadd _ _).
  set (kp := b0 + _ + _ + _).
  assert (Hkp : 0 <= kp < 4294967296) by (subst kp; unfold wfbyte in *; lia).
  assert (Hk : u32 kj = kp).
  { subst kj. rewrite !u32_jadd, !u32_jshl by lia.
    rewrite <- (u32_add b0), <- (u32_add (b0 + _)), <- u32_add. apply u32_small, Hkp. }
  rewrite u32_jxor, !u32_jmul, u32_jxor, u32_jushr, u32_jmul by lia.
  rewrite Hk, !u32_mulPM.
  rewrite !u32_PM.
  change (u32 (kp * PM) mod 4294967296) with (u32 (u32 (kp * PM))). rewrite u32_idem.
  apply u32_small. apply (lxor_nonneg_lt _ _ 32); [lia|apply u32_range|apply u32_range].
Qed.

Lemma final_eq hj : ufinal (u32 hj) = u32 (jfinal hj).
Proof.
  unfold ufinal, jfinal. cbv zeta.
  rewrite !mask_u32, J_M_PM.
  rewrite !u32_jxor, !u32_jushr, !u32_jmul, !u32_jxor, !u32_jushr by lia.
  change (u32 hj mod 4294967296) with (u32 (u32 hj)). rewrite !u32_idem.
  set (A := Z.lxor (u32 hj) (Z.shiftr (u32 hj) 13)).
  rewrite (u32_small A) by (apply xorshift_small; [lia|apply u32_range]).
  rewrite u32_PM.
  change (u32 (A * PM) mod 4294967296) with (u32 (u32 (A * PM))). rewrite !u32_idem.
  apply u32_small, xorshift_small; [lia|apply u32_range].
Qed.

Lemma tail_sh_eq n hj b : 0 <= n -> wfbyte b ->
  utail_sh n (u32 hj) b = u32 (jxor hj (jshl (jand (to_signed_byte b) 255) n)).
Proof.
  intros Hn H. unfold utail_sh. rewrite jand_byte, land_byte, mask_u32 by assumption.
  rewrite u32_jxor, u32_jshl, u32_lxor, u32_idem by exact Hn.
  rewrite Z.shiftl_mul_pow2 by exact Hn. reflexivity.
Qed.

Lemma tail1_eq hj b : wfbyte b ->
  utail1 (u32 hj) b = u32 (jmul (jxor hj (jand (to_signed_byte b) 255)) J_M).
Proof.
  intros H. unfold utail1. rewrite jand_byte, land_byte, !mask_u32, J_M_PM by assumption.
  rewrite u32_jmul, u32_jxor, u32_lxor, !u32_idem.
  rewrite (u32_mul (Z.lxor (u32 hj) (u32 b)) PM).
  rewrite u32_lxor, !u32_idem. reflexivity.
Qed.

Lemma uloop_short l h : (length l < 4)%nat -> uloop l h = ufinal (utail h l).
Proof. destruct l as [|b0 [|b1 [|b2 [|b3 r]]]]; cbn [length]; [reflexivity..|lia]. Qed.

Lemma uloop_jloop : forall l hj, wfb l -> uloop l (u32 hj) = u32 (jloop (map to_signed_byte l) hj).
Proof.
  fix IH 1. intros l hj Hwf.
  destruct l as [|b0 [|b1 [|b2 [|b3 rest]]]]; cbn [uloop utail map jloop jtail];
    repeat (apply Forall_cons_iff in Hwf as [? Hwf]).
  - apply final_eq.
  - rewrite tail1_eq by assumption. apply final_eq.
  - rewrite tail_sh_eq, tail1_eq by (assumption || lia). apply final_eq.
  - rewrite !tail_sh_eq, tail1_eq by (assumption || lia). apply final_eq.
  - rewrite mix_eq by assumption. apply IH. exact Hwf.
Qed.

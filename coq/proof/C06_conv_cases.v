(* Step cases: the steps of one member that leave the coordinator alone. *)
From Coq Require Import ZArith List Bool Arith Lia.
From Verif Require Import DispatchActs HeartbeatDispatch JoinRetryDispatch JoinDispatch SyncDispatch CommitDispatch
  C06_Converge C06_conv_lib C06_conv_refl C06_conv_abs C06_conv_checks C06_conv_step.
Import ListNotations.
Local Open Scope nat_scope.

Lemma ph_of_eqb : forall p q, ph_eqb p q = true -> p = q.
Proof. intros p q H. destruct p, q; try discriminate; reflexivity. Qed.
Lemma none_of_is_none : forall {A} (o : option A), is_none o = true -> o = None.
Proof. intros A o H. destruct o; [discriminate | reflexivity]. Qed.
Lemma nib_inbox : forall m, nib (ib_of m) = is_none (m_inbox m).
Proof. intros m. unfold ib_of. destruct (m_inbox m) as [[? ?|?]|]; reflexivity. Qed.

(* a step of member [i] that changes neither its ids nor the coordinator *)
Lemma local_quiet : forall c ms i m F real, inv_facts c ms -> getm i ms = Some m -> m_live m = true ->
  (forall m0, m_name (F m0) = m_name m0) -> (forall x, bound (F m) x = bound m x) ->
  good (absm c m) (absm c (F m)) 0 (Some real) = true ->
  step_ok real c ms c (updm i F ms).
Proof.
  intros c ms i m F real Hinv G L Hn Hb Hgood. apply (local_same c ms i m F 0 real Hinv G L Hn Hgood).
  - intros x _ B. rewrite <- Hb. exact B.
  - rewrite dkc_zero; [lia|]. intros x B. rewrite Hb. exact B.
Qed.

Lemma validate_abs : forall c m, validate c (m_id m) (m_gen m) = validate_a (a_idz (absm c m)) (a_id_e (absm c m)) (a_gen_eq (absm c m)).
Proof. intros c m. unfold validate, validate_a, absm. pcbn. reflexivity. Qed.
Lemma hb_code_abs : forall c m, hb_code c m = hb_code_a (absm c m).
Proof. intros c m. unfold hb_code, hb_code_a, validate, validate_a, absm. pcbn. destruct (m_ck m); reflexivity. Qed.
Lemma cm_code_abs : forall c m, cm_code c m = cm_code_a (absm c m).
Proof. intros c m. unfold cm_code, cm_code_a, validate, validate_a, absm. pcbn. destruct (m_ck m); reflexivity. Qed.

Lemma src_nojr : forall acts s, s <> SFocus -> fold_left (src1 false) acts s <> SFocus.
Proof.
  induction acts as [|x r IH]; intros s H; [exact H|]. cbn [fold_left]. apply IH. destruct x; cbn [src1]; try exact H; discriminate.
Qed.

Lemma recv_hb_fields : forall code m, let m' := recv_hb code m in
  m_id m' = idval m 0 (src_of false (heartbeatDispatch code)) /\ m_ph m' = m_ph m /\ m_focus m' = m_focus m /\ m_name m' = m_name m.
Proof.
  intros code m. cbv zeta. unfold recv_hb.
  set (m1 := react 0 (heartbeatDispatch code) (set_hbin None m)).
  assert (H1 : m_id m1 = idval m 0 (src_of false (heartbeatDispatch code))).
  { unfold m1. rewrite (react_id false 0); [|reflexivity]. destruct (src_of false (heartbeatDispatch code)); reflexivity. }
  destruct (react_keeps 0 (heartbeatDispatch code) (set_hbin None m)) as (A & B & C & _). fold m1 in A, B, C.
  destruct (m_id m1 =? 0); cbn [m_id m_ph m_focus m_name set_hb]; rewrite A, B, C; auto.
Qed.
Lemma recv_cm_fields : forall code m, let m' := recv_cm code m in
  m_id m' = idval m 0 (src_of false (commitDispatch code)) /\ m_ph m' = m_ph m /\ m_focus m' = m_focus m /\ m_name m' = m_name m.
Proof.
  intros code m. cbv zeta. unfold recv_cm. rewrite (react_id false 0); [|reflexivity].
  destruct (react_keeps 0 (commitDispatch code) (set_cmin None m)) as (A & B & C & _). rewrite A, B, C.
  destruct (src_of false (commitDispatch code)); repeat split; reflexivity.
Qed.

(* a heartbeat or commit reply is on the wire only between rejoin attempts *)
Lemma wf_shape_probe : forall c m, m_live m = true -> wf_m c m = true -> m_ph m = PIdle \/ (m_hbin m = None /\ m_cmin m = None).
Proof.
  intros c m L W. pose proof (wf_pre (absm c m) L W) as P. unfold fin_of, pre_wf, absm in P. pcbn_in P. rewrite L in P.
  apply andb_true_iff in P; destruct P as [P _]. apply andb_true_iff in P; destruct P as [P _]. apply andb_true_iff in P; destruct P as [_ P].
  apply orb_true_iff in P. destruct P as [P|P]; [left; exact (ph_of_eqb _ _ P) | right].
  apply andb_true_iff in P; destruct P as [P Ph]. apply andb_true_iff in P; destruct P as [Pc _]. split; apply none_of_is_none; assumption.
Qed.

Lemma recv_sync_fields : forall code m,
  let m' := recv_sync code m in
  let s := if has ASuccess (syncDispatch code) then SSame else src_of false (syncDispatch code) in
  m_id m' = idval m 0 s /\ m_ph m' = PIdle /\ m_name m' = m_name m /\ s <> SFocus.
Proof.
  intros code m. cbv zeta. unfold recv_sync. destruct (has ASuccess (syncDispatch code)).
  - repeat split; try reflexivity. discriminate.
  - cbn [m_id m_ph m_name set_ph]. rewrite (react_id false 0); [|reflexivity].
    destruct (react_keeps 0 (syncDispatch code) (set_inbox None m)) as (_ & _ & C & _). rewrite C.
    assert (S : src_of false (syncDispatch code) <> SFocus) by (apply src_nojr; discriminate).
    destruct (src_of false (syncDispatch code)); repeat split; try reflexivity; try assumption.
Qed.

Lemma recv_join_fields : forall code g m,
  let m' := recv_join code g m in
  m_id m' = idval m (m_focus m) (join_src code) /\ m_ph m' <> PJoinSent /\ m_name m' = m_name m.
Proof.
  intros code g m. cbv zeta. unfold recv_join, join_src. destruct (has ARetryJoin (joinRetryDispatch code)).
  - cbn [m_id m_ph m_name set_ph]. rewrite (react_id true (m_focus m)); [|intros; discriminate].
    destruct (react_keeps (m_focus m) (joinRetryDispatch code) (set_inbox None m)) as (_ & _ & C & _). rewrite C.
    destruct (src_of true (joinRetryDispatch code)); repeat split; try reflexivity; discriminate.
  - destruct (has ASuccess (joinDispatch code)).
    + repeat split; try reflexivity. discriminate.
    + cbn [m_id m_ph m_name set_ph]. rewrite (react_id true (m_focus m)); [|intros; discriminate].
      destruct (react_keeps (m_focus m) (joinDispatch code) (set_inbox None m)) as (_ & _ & C & _). rewrite C.
      destruct (src_of true (joinDispatch code)); repeat split; try reflexivity; discriminate.
Qed.

(* sends answered without touching the coordinator *)
Definition sent_join (m : member) : member := set_ph PJoinSent (set_hbin None (set_hb false m)).
Definition join_imm (code : Z) (g : nat) (m : member) : member :=
  set_focus (m_id m) (set_inbox (Some (RpJoin code g)) (sent_join m)).

(* a send keeps the member's id; if it opens a JoinGroup exchange, the exchange is about that id *)
Lemma bound_keep : forall m m', m_live m' = m_live m -> m_id m' = m_id m -> m_ph m <> PJoinSent ->
  (m_ph m' <> PJoinSent \/ m_focus m' = m_id m) -> forall x, bound m' x = bound m x.
Proof.
  intros m m' A B Hnj Hf x. rewrite (bound_nj m x Hnj). destruct Hf as [Hf|Hf]; [rewrite (bound_nj m' x Hf), A, B; reflexivity|].
  unfold bound. rewrite A, B, Hf. destruct (ph_eqb (m_ph m') PJoinSent), (m_id m =? x); reflexivity.
Qed.

Lemma absm_join_imm : forall c m code g, m_ph m = PIdle -> m_inbox m = None ->
  absm c (join_imm code g m) =
  a_enter_join (IJ code) (a_idz (absm c m)) (a_id_e (absm c m)) (a_id_p (absm c m)) (a_id_jp (absm c m)) (a_id_sp (absm c m)) true
               (g =? 0) (g =? c_gen c) (g <=? c_gen c) (absm c m).
Proof.
  intros c m code g Hp Hib. unfold absm, a_enter_join, join_imm, sent_join, focus_of, rgen_of, ib_of. pcbn. cbn [ph_eqb].
  rewrite Nat.eqb_refl. reflexivity.
Qed.

(* the member may send a JoinGroup *)
Record join_ready (m : member) : Prop := {
  jr_live : m_live m = true; jr_ph : m_ph m = PIdle; jr_inbox : m_inbox m = None; jr_cmin : m_cmin m = None;
  jr_ck : ck_known (m_ck m) = true; jr_rejoin : m_rejoin m = true }.
Lemma join_ready_abs : forall c m, join_ready m -> join_ready_a (absm c m) = true.
Proof.
  intros c m [_ Hp Hib Hcm Hk Hrj]. unfold join_ready_a, absm, ib_of. pcbn. rewrite Hp, Hib, Hcm, Hk, Hrj. reflexivity.
Qed.

Lemma join_ready_of : forall c m, enabled_a (absm c m) MSendJoin = true -> join_ready m.
Proof.
  intros c m E. unfold enabled_a, join_ready_a in E. change (a_ib (absm c m)) with (ib_of m) in E. rewrite nib_inbox in E.
  apply andb_true_iff in E; destruct E as [L E]. apply andb_true_iff in E; destruct E as [E Hr]. apply andb_true_iff in E; destruct E as [E Hk].
  apply andb_true_iff in E; destruct E as [E Hc]. apply andb_true_iff in E; destruct E as [Hp Hi].
  constructor; [exact L | exact (ph_of_eqb _ _ Hp) | exact (none_of_is_none _ Hi) | exact (none_of_is_none _ Hc) | exact Hk | exact Hr].
Qed.

Lemma absm_join_refused : forall c m code, m_ph m = PIdle -> m_inbox m = None ->
  absm c (join_imm code 0 m) = a_join_refused code (absm c m).
Proof.
  intros c m code Hp Hib. rewrite (absm_join_imm c m code 0 Hp Hib). unfold a_join_refused.
  replace (0 =? c_gen c) with (a_G0 (absm c m)) by (unfold absm; pcbn; apply Nat.eqb_sym). reflexivity.
Qed.

(* SyncGroup answered at once *)
Definition sync_imm (code : Z) (m : member) : member := set_inbox (Some (RpSync code)) (set_ph PSyncSent (set_rejoin false m)).
Lemma absm_sync_imm : forall c m code, m_ph m = PJoined -> m_inbox m = None ->
  absm c (sync_imm code m) = a_send_sync (IS code) (a_id_sp (absm c m)) (absm c m).
Proof.
  intros c m code Hp Hib. unfold absm, a_send_sync, sync_imm, focus_of, rgen_of, ib_of. pcbn. rewrite Hp, Hib. reflexivity.
Qed.

Lemma sync_ready_abs : forall c m, m_ph m = PJoined -> m_inbox m = None -> ck_known (m_ck m) = true ->
  sync_ready_a (absm c m) = true.
Proof. intros c m Hp Hib Hk. unfold sync_ready_a, absm, ib_of. pcbn. rewrite Hp, Hib, Hk. reflexivity. Qed.

Lemma sync_ready_of : forall c m, sync_ready_a (absm c m) = true -> m_ph m = PJoined /\ m_inbox m = None /\ ck_known (m_ck m) = true.
Proof.
  intros c m E. unfold sync_ready_a in E. change (a_ib (absm c m)) with (ib_of m) in E. rewrite nib_inbox in E.
  apply andb_true_iff in E; destruct E as [E Hk]. apply andb_true_iff in E; destruct E as [Hp Hi].
  split; [exact (ph_of_eqb _ _ Hp) | split; [exact (none_of_is_none _ Hi) | exact Hk]].
Qed.

Section Mover.
  Variables (c : coord) (ms : list member) (i : nat) (m : member).
  Hypotheses (Hinv : inv_facts c ms) (G : getm i ms = Some m).
  Let Hin : In m ms := proj1 (getm_In i ms m G).
  Let Hwc : wf_c c = true := iv_wfc _ _ Hinv.

  Lemma case_find : enabled_a (absm c m) MFind = true -> step_ok true c ms c (updm i (set_ck CkOk) ms).
  Proof.
    intros E. unfold enabled_a in E. apply andb_true_iff in E. destruct E as [L E]. apply negb_true_iff in E.
    apply (local_quiet c ms i m (set_ck CkOk) true Hinv G L (fun _ => eq_refl) (fun _ => eq_refl)).
    apply (inv_move c ms m AFind _ _ _ Hinv Hin L). cbn [apost]. rewrite E. reflexivity.
  Qed.

  Lemma case_hbsend : enabled_a (absm c m) MHbSend = true ->
    step_ok (negb (hb_silent_a (absm c m) (hb_code c m))) c ms c (updm i (set_hbin (Some (hb_code c m))) ms).
  Proof.
    intros E. unfold enabled_a in E. apply andb_true_iff in E. destruct E as [L E].
    apply (local_quiet c ms i m (set_hbin (Some (hb_code c m))) _ Hinv G L (fun _ => eq_refl) (fun _ => eq_refl)).
    rewrite (hb_code_abs c m). apply (inv_move c ms m AHbSend _ _ _ Hinv Hin L). cbn [apost]. rewrite E. reflexivity.
  Qed.

  Lemma case_cmsend : enabled_a (absm c m) MCmSend = true ->
    step_ok (negb (cm_silent_a (absm c m) (cm_code c m))) c ms c (updm i (set_cmin (Some (cm_code c m))) ms).
  Proof.
    intros E. unfold enabled_a in E. apply andb_true_iff in E. destruct E as [L E].
    apply (local_quiet c ms i m (set_cmin (Some (cm_code c m))) _ Hinv G L (fun _ => eq_refl) (fun _ => eq_refl)).
    rewrite (cm_code_abs c m). apply (inv_move c ms m ACmSend _ _ _ Hinv Hin L). cbn [apost]. rewrite E. reflexivity.
  Qed.

  (* a probe reply (to a Heartbeat, an OffsetCommit or a SyncGroup: the requests answered with [probe_codes], which
     only test the member's id and generation): the id is kept or zeroed ([s]) outside PJoinSent, so ids only shrink *)
  Lemma case_probe : forall F (s : idsrc) real, m_live m = true ->
    (forall m0, m_name (F m0) = m_name m0) -> s <> SFocus -> m_id (F m) = idval m 0 s ->
    m_ph m <> PJoinSent -> m_ph (F m) <> PJoinSent ->
    good (absm c m) (absm c (F m)) (dk_of (absm c m) (is_zero s) false) (Some real) = true ->
    step_ok real c ms c (updm i F ms).
  Proof.
    intros F s real L Hn Hs Hid Hnj Hnj' Hgood. destruct (good_parts _ _ _ _ Hgood) as (L' & _).
    change (a_live (absm c (F m))) with (m_live (F m)) in L'.
    assert (Hb : forall x, bound (F m) x = (idval m 0 s =? x)) by (intros x; rewrite (bound_nj _ x Hnj'), L', Hid; reflexivity).
    apply (local_same c ms i m F _ real Hinv G L Hn Hgood).
    - intros x Hx B. rewrite Hb in B. apply Nat.eqb_eq in B. rewrite (bound_nj m x Hnj), L.
      destruct s; cbn [idval] in B; [rewrite B; apply Nat.eqb_refl | congruence | contradiction].
    - apply dkc_le; [exact Hwc | exact L | | intros P; contradiction].
      intros B. rewrite Hb in B. destruct s; [rewrite Nat.eqb_refl in B; discriminate | reflexivity | contradiction].
  Qed.

  Lemma case_hbrecv : forall code, m_live m = true -> m_hbin m = Some code ->
    step_ok (negb (hb_silent_a (absm c m) code)) c ms c (updm i (recv_hb code) ms).
  Proof.
    intros code L Hh.
    assert (Hp : m_ph m = PIdle) by (destruct (wf_shape_probe c m L (iv_wfm _ _ Hinv m Hin)) as [Hp|[E _]]; [exact Hp | congruence]).
    destruct (recv_hb_fields code m) as (Fid & Fph & _).
    apply (case_probe (recv_hb code) (src_of false (heartbeatDispatch code)) _ L); try assumption.
    - intros m0. apply (recv_hb_fields code m0).
    - apply src_nojr. discriminate.
    - rewrite Hp. discriminate.
    - rewrite Fph, Hp. discriminate.
    - apply (inv_move c ms m AHbRecv _ _ _ Hinv Hin L). cbn [apost]. change (a_hbin (absm c m)) with (m_hbin m).
      rewrite Hh, <- (absm_recv_hb c (wf_c_zfacts c Hwc)). reflexivity.
  Qed.

  Lemma case_cmrecv : forall code, m_live m = true -> m_cmin m = Some code ->
    step_ok (negb (cm_silent_a (absm c m) code)) c ms c (updm i (recv_cm code) ms).
  Proof.
    intros code L Hh.
    assert (Hp : m_ph m = PIdle) by (destruct (wf_shape_probe c m L (iv_wfm _ _ Hinv m Hin)) as [Hp|[_ E]]; [exact Hp | congruence]).
    destruct (recv_cm_fields code m) as (Fid & Fph & _).
    apply (case_probe (recv_cm code) (src_of false (commitDispatch code)) _ L); try assumption.
    - intros m0. apply (recv_cm_fields code m0).
    - apply src_nojr. discriminate.
    - rewrite Hp. discriminate.
    - rewrite Fph, Hp. discriminate.
    - apply (inv_move c ms m ACmRecv _ _ _ Hinv Hin L). cbn [apost]. change (a_cmin (absm c m)) with (m_cmin m).
      rewrite Hh, <- (absm_recv_cm c (wf_c_zfacts c Hwc)). reflexivity.
  Qed.

  Lemma case_recvsync : forall code, m_live m = true -> m_ph m = PSyncSent -> m_inbox m = Some (RpSync code) ->
    step_ok true c ms c (updm i (recv_sync code) ms).
  Proof.
    intros code L Hp Hib. destruct (recv_sync_fields code m) as (Fid & Fph & _ & Fs).
    apply (case_probe (recv_sync code) _ true L (fun m0 => proj1 (proj2 (proj2 (recv_sync_fields code m0)))) Fs Fid).
    - rewrite Hp. discriminate.
    - rewrite Fph. discriminate.
    - apply (inv_move c ms m ARecv _ _ _ Hinv Hin L). cbn [apost].
      change (a_ph (absm c m)) with (m_ph m). change (a_ib (absm c m)) with (ib_of m). unfold ib_of. rewrite Hp, Hib.
      rewrite <- (absm_recv_sync c (wf_c_zfacts c Hwc) code m Hp). destruct (has ASuccess (syncDispatch code)); reflexivity.
  Qed.

  Lemma case_recvjoin : forall code g, m_live m = true -> m_ph m = PJoinSent -> m_inbox m = Some (RpJoin code g) ->
    step_ok true c ms c (updm i (recv_join code g) ms).
  Proof.
    intros code g L Hp Hib. set (F := recv_join code g).
    pose proof (fun a' dk r => inv_move c ms m ARecv a' dk r Hinv Hin L) as H. cbn [apost] in H.
    change (a_ph (absm c m)) with (m_ph m) in H. change (a_ib (absm c m)) with (ib_of m) in H. unfold ib_of in H. rewrite Hp, Hib in H.
    specialize (H _ _ _ eq_refl). rewrite <- (absm_recv_join c (wf_c_zfacts c Hwc) code g m Hp Hib) in H.
    destruct (good_parts _ _ _ _ H) as (L' & _). change (a_live (absm c (recv_join code g m))) with (m_live (F m)) in L'.
    destruct (recv_join_fields code g m) as (Fid & Fph & Fnm). fold F in Fid, Fph, Fnm.
    assert (Ef : focus_of m = m_focus m) by (unfold focus_of; rewrite Hp; reflexivity).
    assert (Hb : forall x, bound (F m) x = (idval m (m_focus m) (join_src code) =? x)) by (intros x; rewrite (bound_nj _ x Fph), L', Fid; reflexivity).
    apply (local_same c ms i m F _ true Hinv G L (fun m0 => proj2 (proj2 (recv_join_fields code g m0))) H).
    - intros x Hx B. rewrite Hb in B. apply Nat.eqb_eq in B. unfold bound. rewrite L, Hp. cbn [ph_eqb andb].
      destruct (join_src code); cbn [idval] in B; [rewrite B, Nat.eqb_refl; reflexivity | congruence | rewrite B, Nat.eqb_refl; apply orb_true_r].
    - apply dkc_le; [exact Hwc | exact L | |].
      + intros B. rewrite Hb in B. unfold absm. pcbn. rewrite Ef. destruct (join_src code); cbn [idval] in B.
        * rewrite Nat.eqb_refl in B. discriminate.
        * rewrite (Nat.eqb_sym (m_id m) 0), B. reflexivity.
        * rewrite B. reflexivity.
      + intros _ B. rewrite Hb in B. unfold absm. pcbn. rewrite Ef. destruct (join_src code); cbn [idval] in B.
        * rewrite (Nat.eqb_sym (m_focus m) (m_id m)), B. reflexivity.
        * reflexivity.
        * rewrite Nat.eqb_refl in B. discriminate.
  Qed.

  (* a JoinGroup answered at once for the member's own id, the coordinator unchanged *)
  Lemma case_join_imm : forall mv code g, join_ready m ->
    apost (absm c m) mv = Some (absm c (join_imm code g m), 0, Some true) -> step_ok true c ms c (updm i (join_imm code g) ms).
  Proof.
    intros mv code g R E. pose proof (jr_live m R) as L.
    apply (local_quiet c ms i m (join_imm code g) true Hinv G L (fun _ => eq_refl)); [|exact (inv_move c ms m mv _ _ _ Hinv Hin L E)].
    apply bound_keep; [reflexivity | reflexivity | rewrite (jr_ph m R); discriminate | right; reflexivity].
  Qed.

  (* ... to the wrong node *)
  Lemma case_join_stale : join_ready m -> m_ck m = CkStale -> step_ok true c ms c (updm i (join_imm 16 0) ms).
  Proof.
    intros R Hck. apply (case_join_imm (AJoinRefused true) 16 0 R).
    cbn [apost]. rewrite (join_ready_abs c m R). change (a_ck (absm c m)) with (m_ck m). rewrite Hck. cbn [ck_stale andb].
    rewrite (absm_join_refused c m 16 (jr_ph m R) (jr_inbox m R)). reflexivity.
  Qed.

  (* ... unknown member id *)
  Lemma case_join_25 : join_ready m -> ck_stale (m_ck m) = false ->
    (m_id m =? 0) = false -> memb (m_id m) (ids (c_ents c)) = false -> memb (m_id m) (c_pend c) = false ->
    step_ok true c ms c (updm i (join_imm 25 0) ms).
  Proof.
    intros R Hns Hz He Hpe. apply (case_join_imm (AJoinRefused false) 25 0 R).
    cbn [apost]. rewrite (join_ready_abs c m R). change (a_ck (absm c m)) with (m_ck m). change (a_idz (absm c m)) with (m_id m =? 0).
    change (a_id_e (absm c m)) with (memb (m_id m) (ids (c_ents c))). change (a_id_p (absm c m)) with (memb (m_id m) (c_pend c)).
    rewrite Hns, Hz, He, Hpe. cbn [negb andb]. rewrite (absm_join_refused c m 25 (jr_ph m R) (jr_inbox m R)). reflexivity.
  Qed.

  Lemma case_sync_imm : forall code, m_live m = true -> m_ph m = PJoined -> m_inbox m = None -> ck_known (m_ck m) = true ->
    sync_reply (absm c m) = Some code -> step_ok true c ms c (updm i (sync_imm code) ms).
  Proof.
    intros code L Hp Hib Hk Hrep. apply (local_quiet c ms i m (sync_imm code) true Hinv G L (fun _ => eq_refl)).
    - apply bound_keep; [reflexivity | reflexivity | rewrite Hp; discriminate | left; discriminate].
    - apply (inv_move c ms m ASendSync _ _ _ Hinv Hin L). cbn [apost].
      rewrite (sync_ready_abs c m Hp Hib Hk), Hrep, <- (absm_sync_imm c m code Hp Hib). reflexivity.
  Qed.
End Mover.

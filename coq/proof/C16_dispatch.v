(* C16_dispatch.v — the vocabulary in which props/C16.v and props/C07.v say what the error-dispatch chains of
   the transactional request handlers do (the chains are translated from sender.py on every run,
   gen/Txn*Dispatch.v).  Classes of errors: retriable (coordinator moved or loading, concurrent
   transactions, ...), abortable (topic / group authorization), fatal (fencing, transactional-id
   authorization, invalid state/mapping, unknown). *)
From Coq Require Import ZArith List Bool.
From Verif Require Import DispatchActs TxnInitPidDispatch TxnAddPartitionsDispatch TxnAddOffsetsDispatch
  TxnOffsetCommitDispatch TxnEndDispatch.
Import ListNotations.
Open Scope Z_scope.

Inductive tclass := TSuccess | TRetry | TAbortable | TFatal | TIgnored.

(* the class of what a chain does with a code *)
Definition classify (l : list act) : tclass :=
  if fatal l then TFatal
  else if has AAbortable l || has AErrored l then TAbortable
  else if has ARetryAfterBackoff l then TRetry
  else if has ASuccess l then TSuccess
  else TIgnored.

Definition tclass_eqb (a b : tclass) : bool :=
  match a, b with
  | TSuccess, TSuccess | TRetry, TRetry | TAbortable, TAbortable | TFatal, TFatal | TIgnored, TIgnored => true
  | _, _ => false
  end.

(* retriable coordinator conditions per request *)
Definition retriable_coord : list Z := [14; 15; 16; 51].       (* LOAD_IN_PROGRESS, NOT_AVAILABLE, NOT_COORDINATOR, CONCURRENT_TRANSACTIONS *)
Definition retriable_add_partitions : list Z := [14; 15; 16; 51; 3].     (* 3 UNKNOWN_TOPIC_OR_PARTITION *)
Definition retriable_offset_commit : list Z := [14; 15; 16; 3; 7].       (* 7 REQUEST_TIMED_OUT *)
Definition FENCED : Z := 47.                 (* INVALID_PRODUCER_EPOCH *)
Definition TXN_ID_AUTH : Z := 53.            (* TRANSACTIONAL_ID_AUTHORIZATION_FAILED *)
Definition TOPIC_AUTH : Z := 29.
Definition GROUP_AUTH : Z := 30.

(* [unnamed Hn] rewrites every comparison [c =? k] of a goal about a dispatch chain with a code k the chain names
   to false, given [Hn : ~ In c named_codes]: only the default branch is left *)
Lemma unnamed_eqb c l k : ~ In c l -> existsb (Z.eqb k) l = true -> (c =? k) = false.
Proof.
  intros Hn Hk. apply Z.eqb_neq. intros ->. apply Hn.
  apply existsb_exists in Hk. destruct Hk as (x & Hx & E). apply Z.eqb_eq in E. subst x. exact Hx.
Qed.
Ltac unnamed Hn :=
  repeat match goal with
         | |- context [?x =? ?k] => rewrite (unnamed_eqb x _ k Hn eq_refl)
         end.

(* C11_tables.v — the finite checks over gen/Schemas.v, by computation. *)
From Coq Require Import ZArith List Bool String.
From Verif Require Import Wire WireTables KafkaSpec C11Negotiate C11Tables Schemas.
Import ListNotations.
Open Scope Z_scope.

Definition schemas : list (string * ty) := all_schemas requests responses aux_structs.

Lemma all_covered : forallb (fun e => covered (snd e)) schemas = true.
Proof. vm_compute. reflexivity. Qed.

Lemma all_req_layout : forallb (fun r => req_layout_ok r || is_known (rq_name r)) requests = true.
Proof. vm_compute. reflexivity. Qed.

Lemma all_resp_layout : forallb (fun r => resp_layout_ok r || is_known (rs_name r)) responses = true.
Proof. vm_compute. reflexivity. Qed.

Lemma all_aux_layout : forallb aux_layout_ok aux_structs && headers_present aux_structs = true.
Proof. vm_compute. reflexivity. Qed.

Lemma all_pairing : forallb (pairing_ok responses) requests = true.
Proof. vm_compute. reflexivity. Qed.

Lemma all_req_names : forallb req_name_ok requests = true.
Proof. vm_compute. reflexivity. Qed.

Lemma all_resp_names : forallb resp_name_ok responses = true.
Proof. vm_compute. reflexivity. Qed.

Lemma versions_unique :
  nodup_zz (map (fun r => (rq_key r, rq_ver r)) requests) = true /\
  nodup_zz (map (fun r => (rs_key r, rs_ver r)) responses) = true.
Proof. vm_compute. split; reflexivity. Qed.

Lemma all_builders : forallb (builder_ok requests) builders = true.
Proof. vm_compute. reflexivity. Qed.

Lemma forallb_In {A} (f : A -> bool) l : forallb f l = true -> forall x, In x l -> f x = true.
Proof. apply forallb_forall. Qed.

Lemma is_known_In n : is_known n = true -> In n known_layout_deviations.
Proof.
  intros H. apply existsb_exists in H as (x & Hx & Heq).
  apply String.eqb_eq in Heq. subst. exact Hx.
Qed.

Lemma layout_requests : forall r, In r requests ->
  req_layout_ok r = true \/ In (rq_name r) known_layout_deviations.
Proof.
  intros r H. apply (forallb_In _ _ all_req_layout), orb_prop in H as [H|H]; [left; exact H|right].
  exact (is_known_In _ H).
Qed.

Lemma layout_responses : forall r, In r responses ->
  resp_layout_ok r = true \/ In (rs_name r) known_layout_deviations.
Proof.
  intros r H. apply (forallb_In _ _ all_resp_layout), orb_prop in H as [H|H]; [left; exact H|right].
  exact (is_known_In _ H).
Qed.

Lemma layout_aux : forall e, In e aux_structs -> aux_layout_ok e = true.
Proof. apply forallb_In. exact (proj1 (andb_prop _ _ all_aux_layout)). Qed.

Lemma pairing : forall r, In r requests -> pairing_ok responses r = true.
Proof. exact (forallb_In _ _ all_pairing). Qed.

Lemma names_requests : forall r, In r requests -> rq_name_ver r = rq_ver r /\ 0 <= rq_ver r.
Proof.
  intros r H. apply (forallb_In _ _ all_req_names), andb_prop in H as [H1 H2].
  split; [apply Z.eqb_eq; exact H1|apply Z.leb_le; exact H2].
Qed.

Lemma names_responses : forall r, In r responses -> rs_name_ver r = rs_ver r /\ 0 <= rs_ver r.
Proof.
  intros r H. apply (forallb_In _ _ all_resp_names), andb_prop in H as [H1 H2].
  split; [apply Z.eqb_eq; exact H1|apply Z.leb_le; exact H2].
Qed.

Lemma builders_ok : forall b, In b builders -> builder_ok requests b = true.
Proof. exact (forallb_In _ _ all_builders). Qed.

Lemma builder_sorted : forall b, In b builders -> sorted_lt (map snd (bd_classes b)) = true.
Proof.
  intros b H. pose proof (builders_ok b H) as Hb. unfold builder_ok in Hb.
  apply andb_prop in Hb as [Hb _]. apply andb_prop in Hb as [Hb _]. exact Hb.
Qed.


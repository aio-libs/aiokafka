(* ListFacts.v — facts about lists, duplicate-free lists and strongly sorted lists that the standard library of
   8.16 lacks; used by the proofs of C01, C03, C08, C12, C14 and C15. *)
From Coq Require Import List Sorted Lia.
Import ListNotations.

Lemma filter_all {A} (p : A -> bool) l : (forall x, In x l -> p x = true) -> filter p l = l.
Proof.
  induction l as [|y l IH]; cbn; intros H; [reflexivity|].
  rewrite (H y (or_introl eq_refl)), IH; [reflexivity|]. intros x I. apply H. right. exact I.
Qed.

Lemma filter_none {A} (p : A -> bool) l : (forall x, In x l -> p x = false) -> filter p l = [].
Proof.
  induction l as [|y l IH]; cbn; intros H; [reflexivity|].
  rewrite (H y (or_introl eq_refl)). apply IH. intros x I. apply H. right. exact I.
Qed.

Lemma filter_length_le {A} (p : A -> bool) l : length (filter p l) <= length l.
Proof. induction l as [|x l IH]; cbn; [lia|]. destruct (p x); cbn; lia. Qed.

Lemma NoDup_app_l {A} (l l' : list A) : NoDup (l ++ l') -> NoDup l.
Proof.
  induction l' as [|a l' IH]; [rewrite app_nil_r; trivial|].
  intros H. apply IH, (NoDup_remove_1 _ _ _ H).
Qed.

Lemma NoDup_app_intro {A} (l1 l2 : list A) :
  NoDup l1 -> NoDup l2 -> (forall x, In x l1 -> In x l2 -> False) -> NoDup (l1 ++ l2).
Proof.
  induction l1 as [|a l1 IH]; simpl; intros H1 H2 Hd; auto.
  inversion H1; subst. constructor.
  - rewrite in_app_iff. intros [H|H]; auto. eapply Hd; eauto.
  - apply IH; auto. intros x Hx Hx2. eapply Hd; eauto.
Qed.

(* StronglySorted under append, filter and snoc *)
Lemma ss_app_r {A} (R : A -> A -> Prop) : forall l1 l2, StronglySorted R (l1 ++ l2) -> StronglySorted R l2.
Proof. induction l1; cbn; intros l2 H; [exact H|]. inversion H; subst. auto. Qed.

Lemma ss_app_l {A} (R : A -> A -> Prop) : forall l1 l2, StronglySorted R (l1 ++ l2) -> StronglySorted R l1.
Proof.
  induction l1; cbn; intros l2 H; [constructor|]. inversion H as [|? ? S F]; subst.
  constructor; [eauto|]. apply Forall_app in F. tauto.
Qed.

Lemma ss_app_cross {A} (R : A -> A -> Prop) : forall l1 l2 a b,
  StronglySorted R (l1 ++ l2) -> In a l1 -> In b l2 -> R a b.
Proof.
  induction l1; cbn; intros l2 x y H Ia Ib; [contradiction|].
  inversion H as [|? ? S F]; subst. destruct Ia as [->|Ia]; [|eauto].
  rewrite Forall_forall in F. apply F. apply in_or_app. auto.
Qed.

Lemma ss_filter {A} (R : A -> A -> Prop) (p : A -> bool) : forall l,
  StronglySorted R l -> StronglySorted R (filter p l).
Proof.
  induction l; cbn; intros H; [constructor|]. inversion H as [|? ? S F]; subst.
  destruct (p a); [|auto]. constructor; [auto|]. rewrite Forall_forall in *.
  intros x I. apply filter_In in I. apply F. tauto.
Qed.

Lemma ss_snoc {A} (R : A -> A -> Prop) : forall l x,
  StronglySorted R l -> Forall (fun a => R a x) l -> StronglySorted R (l ++ [x]).
Proof.
  induction 1 as [|a l Hs IH Hall]; intros Hx; [repeat constructor|].
  inversion Hx; subst. cbn. constructor; [apply IH; assumption|].
  apply Forall_app. split; [exact Hall|]. constructor; [assumption|constructor].
Qed.

(* two elements of a sorted list are equal or related, one way or the other *)
Lemma ss_trichotomy {A} (R : A -> A -> Prop) : forall l a b,
  StronglySorted R l -> In a l -> In b l -> a = b \/ R a b \/ R b a.
Proof.
  induction l as [|x l IH]; intros a b S Ia Ib; [contradiction|].
  inversion S as [|? ? Sl Fx]; subst. rewrite Forall_forall in Fx.
  destruct Ia as [<-|Ia], Ib as [<-|Ib]; auto.
Qed.

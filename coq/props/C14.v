(* C14 — Assignors give each subscribed partition exactly one subscribed owner, balanced.
   Public statements.  Models: model/C14_Assignors.v (range, round-robin, vocabulary),
   model/C14_Sticky.v (checkers, StickyAbs, StickyCtl), model/C14_Circle.v (sticky runs that end
   on a repeated state), model/C14_Run.v (case runner of the correspondence; [run_sticky_circle]
   below).  Proofs: proof/C14_*.v.

   Vocabulary (model/C14_Assignors.v):
     ppt : list (topic * option nat)      the cluster stub (None / absent = no metadata)
     ms  : list (member * list topic)     the members mapping in dict order
     triples_of out                       all (owner, (topic, partition)) facts of a result
     valid ppt ms tr    :=  NoDup (map snd tr)                                   (at most one owner, counting multiplicity)
                         /\ every (m, x) in tr: m subscribed to x's topic, x exists
                         /\ every existing partition of a topic somebody subscribes to has an owner in tr
   Hypotheses: ids_nodup ms (member ids are dict keys), subs_nodup ms (a subscription lists a
   topic once — what the property's "every non-empty subscription" ranges over). *)
From Coq Require Import Arith List Bool ZArith.
From Verif Require Import C14_Assignors C14_Sticky C14_lists C14_range C14_rr C14_checkers
  C14_sticky C14_balance.
From Verif Require Import C14_Run C14_Circle C14_circle.
Import ListNotations.

Theorem c14_range_valid : forall ppt ms, ids_nodup ms -> subs_nodup ms ->
  valid ppt ms (triples_of (range_assign ppt ms)).
Proof. exact range_valid. Qed.
Print Assumptions c14_range_valid.

(* per topic with metadata: the i-th subscriber in id order holds exactly the contiguous
   slice seq (start i) (len i) with n/k <= len i <= n/k + 1 *)
Theorem c14_range_balanced : forall ppt ms t n, ids_nodup ms -> subs_nodup ms ->
  lookup_parts ppt t = Some n ->
  let tr := triples_of (range_assign ppt ms) in
  let k := length (consumers_for_topic ms t) in
  (forall m, subscribed ms m t ->
     exists i, i < k /\ nth i (consumers_for_topic ms t) 0 = m /\
               load_topic tr m t = seq (range_start n k i) (range_len n k i) /\
               n / k <= range_len n k i <= n / k + 1)
  /\ (forall m1 m2, subscribed ms m1 t -> subscribed ms m2 t ->
        length (load_topic tr m1 t) <= length (load_topic tr m2 t) + 1).
Proof.
  intros ppt ms t n Hi Hs L tr k.
  pose proof (range_balanced ppt ms t n Hi Hs L) as B. split; [exact B|].
  intros m1 m2 H1 H2.
  destruct (B m1 H1) as (i1 & _ & _ & E1 & B1). destruct (B m2 H2) as (i2 & _ & _ & E2 & B2).
  subst tr. rewrite E1, E2, !seq_length.
  apply (Nat.le_trans _ _ _ (proj2 B1)), Nat.add_le_mono_r, (proj1 B2).
Qed.
Print Assumptions c14_range_balanced.

(* the skip loop (`while topic not in subscription: next(member_iter)`) never exhausts one
   full turn of the cycle: the model never returns its out-of-fuel value *)
Theorem c14_rr_terminates : forall ppt ms, ids_nodup ms -> roundrobin_assign ppt ms <> None.
Proof.
  intros ppt ms H. unfold roundrobin_assign.
  pose proof (rr_terminates ppt ms H). destruct (rr_triples ppt ms); congruence.
Qed.
Print Assumptions c14_rr_terminates.

Theorem c14_rr_valid : forall ppt ms out, ids_nodup ms ->
  roundrobin_assign ppt ms = Some out -> valid ppt ms (triples_of out).
Proof.
  intros ppt ms out Hi H. unfold roundrobin_assign in H.
  destruct (rr_triples ppt ms) as [tr|] eqn:E; [|discriminate].
  inversion H; subst. apply (regroup_valid ppt ms tr Hi), rr_triples_valid; auto.
Qed.
Print Assumptions c14_rr_valid.

Theorem c14_rr_balanced : forall ppt ms out, ids_nodup ms -> identical_subs ms ->
  roundrobin_assign ppt ms = Some out -> within_one ms (triples_of out).
Proof. exact rr_balanced. Qed.
Print Assumptions c14_rr_balanced.

Theorem c14_checkers_sound_complete : forall ppt ms tr, ids_nodup ms ->
  (valid_b ppt ms tr = true <-> valid ppt ms tr) /\
  (within_one_b ms tr = true <-> within_one ms tr) /\
  (kip54_balanced_b ms tr = true <-> kip54_balanced ms tr).
Proof.
  intros ppt ms tr Hi. split; [|split].
  - apply valid_b_spec; auto.
  - apply within_one_b_spec.
  - apply kip54_balanced_b_spec; auto.
Qed.
Print Assumptions c14_checkers_sound_complete.

(* Sticky, validity.  (a) StickyAbs.  From any state with one owner per partition (what
   _init_current_assignments builds), after the Drop every state reached by any sequence of
   Assign / Snap / Move / Revert steps has one owner per partition, a potential consumer
   (member, subscribed to the topic, partition exists). *)
Theorem c14_sticky_abs_sound : forall ppt ms st0 ops st sn,
  NoDup (map snd st0) ->
  abs_run ppt ms (st0, None) (ADrop :: ops) = Some (st, sn) -> sound ppt ms st.
Proof.
  intros ppt ms st0 ops st sn Hn H.
  exact (abs_run_sound (drop_sound ppt ms st0 Hn) H).
Qed.
Print Assumptions c14_sticky_abs_sound.

(* (b) The assign loop of balance(), handed every assignable partition that is not owned yet,
   leaves none unowned and is a sequence of accepted Assign steps ... *)
Theorem c14_sticky_assign_phase_complete : forall ppt ms xs st, ids_nodup ms ->
  (forall x, assignable ppt ms x -> (exists m, In (m, x) st) \/ In x xs) ->
  complete ppt ms (assign_loop ppt ms st xs)
  /\ exists l, ctl_assigns ppt ms st l = Some (assign_loop ppt ms st xs).
Proof.
  intros. split; [apply assign_loop_complete; auto | apply assign_loop_is_ctl].
Qed.
Print Assumptions c14_sticky_assign_phase_complete.

(* ... and Assign / Snap / Move / Revert never un-own an assignable partition (also not the
   snapshot that Revert restores). *)
Theorem c14_sticky_abs_complete_preserved : forall ppt ms ops s s', Forall no_drop ops ->
  abs_cinv ppt ms s -> abs_run ppt ms s ops = Some s' -> abs_cinv ppt ms s'.
Proof. exact abs_run_cinv. Qed.
Print Assumptions c14_sticky_abs_complete_preserved.

(* (c) StickyCtl — the op log of the real executor with every guard re-checked — is a
   StickyAbs run ending in the returned state ... *)
Theorem c14_sticky_ctl_refines_abs : forall ppt ms prev st0 assigns reassigns obs r,
  NoDup (map snd st0) ->
  ctl_run ppt ms prev st0 assigns reassigns obs = Some r ->
  abs_run ppt ms (st0, None) (ctl_aops assigns reassigns (cr_reverted r))
  = Some (cr_final r, Some (cr_prebalance r)).
Proof.
  intros ppt ms prev st0 assigns reassigns obs r Hn H.
  exact (ctl_log_abs_run Hn (proj1 (ctl_run_inv H))).
Qed.
Print Assumptions c14_sticky_ctl_refines_abs.

(* ... and its result (as well as the prebalance copy and the pre-revert state) is a valid
   assignment — for any user data: [prev] (the lower-generation claimants) is arbitrary.
   The code before /repo c41f241 had this only when every such claimant was a potential consumer
   of the partition it claims (a stale claimant that no longer subscribed got the partition
   back, or assign() raised KeyError). *)
Theorem c14_sticky_valid : forall ppt ms prev st0 assigns reassigns obs r,
  ids_nodup ms -> NoDup (map snd st0) ->
  ctl_run ppt ms prev st0 assigns reassigns obs = Some r ->
  valid ppt ms (cr_final r) /\ valid ppt ms (cr_prebalance r) /\ valid ppt ms (cr_balanced r).
Proof.
  intros ppt ms prev st0 assigns reassigns obs r Hi Hn H.
  apply (ctl_log_sound_valid Hn (proj1 (ctl_run_inv H))), Hi.
Qed.
Print Assumptions c14_sticky_valid.

(* Regression (corpus/C14/stale_claimant.json): the two op logs that the code before
   c41f241 produced on the stale-claimant inputs — t0-0 moved "back" to C1, which is not
   subscribed to t0; the balanced state discarded in favour of the unbalanced copy — are
   rejected by the skeleton. *)
Example c14_stale_claimant_logs_rejected :
  (let claims := [(0, 2%Z, [(0, 0); (0, 1); (0, 2)]); (1, 1%Z, [(0, 0)]); (2, (-1)%Z, [])] in
   ctl_run [(0, Some 3); (1, Some 1)] [(0, [0]); (1, [1]); (2, [0; 1])]
           (snd (init_current claims)) (fst (init_current claims))
           [((1, 0), 1)] [(((0, 0), 1), (0, 0)); (((0, 1), 2), (0, 1))] false = None)
  /\
  (let claims := [(0, 2%Z, [(0, 0)]); (1, 1%Z, [(0, 0)]); (2, 2%Z, [(0, 1); (0, 2); (0, 3)]);
                  (3, (-1)%Z, [])] in
   ctl_run [(0, Some 4); (1, Some 0)] [(0, [0]); (1, [1]); (2, [0]); (3, [0])]
           (snd (init_current claims)) (fst (init_current claims))
           [] [(((0, 1), 3), (0, 1))] true = None).
Proof. vm_compute. auto. Qed.

(* Sticky, balance.  Full statement: the returned assignment is always KIP-54 balanced. *)
Definition C14_sticky_balanced_full : Prop :=
  forall ppt ms prev st0 assigns reassigns obs r,
    ids_nodup ms -> NoDup (map snd st0) ->
    ctl_run ppt ms prev st0 assigns reassigns obs = Some r -> kip54_balanced ms (cr_final r).

(* Proved part: the state in which the reassignment loop stops is KIP-54 balanced (exit via
   `_is_balanced()` or via a pass without a trigger), hence so is the result whenever the
   prebalance copy is not restored.  Missing: that `balance()` never restores an unbalanced
   prebalance copy (the score comparison is not shown to imply it).  Neither the exhaustive
   bounded enumeration nor the random search (with adversarial user data) finds an input where
   the real code returns an unbalanced assignment.  (Before c41f241 it did: the score of the
   balanced state could count a phantom empty entry for a stale claimant.) *)
Theorem c14_sticky_balanced_partial : forall ppt ms prev st0 assigns reassigns obs r,
  ids_nodup ms -> NoDup (map snd st0) ->
  ctl_run ppt ms prev st0 assigns reassigns obs = Some r ->
  kip54_balanced ms (cr_balanced r) /\
  (cr_reverted r = false -> kip54_balanced ms (cr_final r)).
Proof.
  intros ppt ms prev st0 assigns reassigns obs r Hi Hn H.
  destruct (ctl_run_inv H) as [L Ee]. destruct (ctl_log_sound_valid Hn L) as [Hs2 [Hs3 _]].
  destruct L as [_ [_ [_ [Er Ef]]]].
  assert (B : kip54_balanced ms (cr_balanced r))
    by (apply (end_ok_kip54 ppt ms prev (cr_prebalance r)); auto).
  split; auto. intros E. rewrite Ef, <- Er, E. auto.
Qed.
Print Assumptions c14_sticky_balanced_partial.

Example c14_examples :
  range_assign [(0, Some 3); (1, Some 3)] [(0, [0; 1]); (1, [0; 1])]
    = [(0, [(0, [0; 1]); (1, [0; 1])]); (1, [(0, [2]); (1, [2])])]
  /\ roundrobin_assign [(0, Some 3); (1, Some 3)] [(0, [0; 1]); (1, [0; 1])]
    = Some [(0, [(0, [0; 2]); (1, [1])]); (1, [(0, [1]); (1, [0; 2])])]
  /\ roundrobin_assign [(0, Some 1); (1, Some 2); (2, Some 3)] [(0, [0]); (1, [0; 1]); (2, [0; 1; 2])]
    = Some [(0, [(0, [0])]); (1, [(1, [0])]); (2, [(1, [1]); (2, [0; 1; 2])])].
Proof. vm_compute. auto. Qed.

(* subs_nodup is needed: the code (and the model) lose partition 0 when C0 lists t0 twice *)
Example c14_range_subs_nodup_needed :
  let ppt := [(0, Some 3)] in let ms := [(0, [0; 0]); (1, [0])] in
  range_assign ppt ms = [(0, [(0, [1])]); (1, [(0, [2])])]
  /\ valid_b ppt ms (triples_of (range_assign ppt ms)) = false.
Proof. vm_compute. auto. Qed.

(* an accepted sticky log with a Move and the hypotheses of c14_sticky_valid *)
Example c14_sticky_hyps_satisfiable :
  exists r, ctl_run [(0, Some 1); (1, Some 5)] [(0, [1]); (1, [1]); (2, [1])] []
              [(0, (1, 2)); (0, (1, 3)); (0, (1, 4)); (1, (1, 0)); (1, (1, 1))] []
              [(((1, 4), 2), (1, 4))] false = Some r
            /\ cr_reverted r = false.
Proof. eexists. split; [vm_compute; reflexivity | reflexivity]. Qed.

(* Sticky passes that go round in a circle.  Since /repo 0d5eafa the balancing loop has a third
   exit: the assignment at the end of a pass was seen before (before that commit such runs never
   ended).  These runs are judged by [ctl_run_circle] (model/C14_Circle.v): the same enabled
   moves, neither proper exit at the end, the final ownership reached before.  They still return
   a valid assignment ... *)
Theorem c14_sticky_circle_valid : forall ppt ms prev st0 assigns reassigns obs r,
  ids_nodup ms -> NoDup (map snd st0) ->
  ctl_run_circle ppt ms prev st0 assigns reassigns obs = Some r ->
  valid ppt ms (cr_final r) /\ valid ppt ms (cr_prebalance r) /\ valid ppt ms (cr_balanced r).
Proof.
  intros ppt ms prev st0 assigns reassigns obs r Hi Hn H.
  apply (ctl_log_sound_valid Hn (proj1 (ctl_run_circle_inv H))), Hi.
Qed.
Print Assumptions c14_sticky_circle_valid.

(* ... and are no runs of [ctl_run], so c14_sticky_balanced_partial does not speak about them ... *)
Theorem c14_sticky_circle_is_not_a_proper_exit : forall ppt ms prev st0 assigns reassigns obs r,
  ctl_run_circle ppt ms prev st0 assigns reassigns obs = Some r ->
  ctl_run ppt ms prev st0 assigns reassigns obs = None.
Proof.
  intros ppt ms prev st0 assigns reassigns obs r H.
  destruct (ctl_run_circle_inv H) as [[E2 [Ec [[mv E3] _]]] [Ee _]].
  unfold ctl_run. rewrite E2, Ec. simpl. rewrite E3, Ee. reflexivity.
Qed.
Print Assumptions c14_sticky_circle_is_not_a_proper_exit.

(* ... rightly: the balance clause fails for them.  The op log the real assignor records on the first input of
   corpus/C14/pingpong.json (an ordinary rebalance: C9 owns a previous generation, C0, C2 and C11 join, different
   subscriptions) is accepted as a circle run, equals what assign() returned, is valid, and is NOT KIP-54 balanced
   (known finding K5; the check replays this on the real code in every run). *)
Example c14_sticky_circle_unbalanced :
  run_sticky_circle [6; 0; 4; 1; 8; 2; 8; 3; 4; 4; 8; 5; 2; 4; 0; 3; 2; 0; 1; 2; 3; 0; 4; 5; 9; 3; 2; 0; 3; 11; 1; 2; 4; 0; 0; 0; 2; 0; 0; 9; 2; 11; 0; 0; 0; 2; 2; 0; 2; 2; 2; 3; 2; 4; 2; 5; 2; 6; 3; 0; 3; 1; 3; 2; 11; 0; 0; 11; 9; 0; 0; 9; 0; 2; 9; 2; 0; 9; 2; 2; 9; 2; 3; 9; 2; 4; 9; 2; 5; 9; 2; 6; 9; 3; 0; 9; 3; 1; 9; 3; 2; 0; 17; 1; 0; 0; 1; 1; 0; 1; 2; 0; 1; 3; 0; 1; 4; 0; 1; 5; 0; 1; 6; 0; 4; 0; 2; 4; 1; 2; 4; 2; 2; 4; 3; 2; 4; 4; 2; 4; 5; 2; 4; 6; 2; 5; 0; 2; 0; 1; 0; 2; 1; 11; 11; 0; 0; 0; 0; 0; 0; 2; 2; 0; 2; 2; 0; 11; 2; 0; 2; 2; 11; 2; 2; 2; 3; 11; 2; 3; 2; 4; 11; 2; 4; 0; 0; 9; 0; 0; 0; 1; 9; 0; 1; 0; 2; 0; 0; 1; 0; 1; 9; 0; 1; 0; 2; 0; 0; 1; 0; 28; 9; 2; 5; 9; 2; 6; 9; 3; 0; 9; 3; 1; 9; 3; 2; 9; 0; 0; 0; 1; 0; 0; 1; 1; 0; 1; 2; 0; 1; 3; 0; 1; 4; 0; 1; 5; 0; 1; 6; 0; 0; 1; 2; 4; 0; 2; 4; 1; 2; 4; 2; 2; 4; 3; 2; 4; 4; 2; 4; 5; 2; 4; 6; 2; 5; 0; 2; 0; 2; 11; 2; 1; 11; 2; 0; 11; 2; 2; 11; 2; 3; 11; 2; 4]%nat = [1; 1; 1; 0]%nat.
Proof. vm_compute. reflexivity. Qed.

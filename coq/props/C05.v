(* C05 — Within a generation partitions have one owner; revoked partitions go silent.
   Public statements; the invariant they are read off is in proof/C05_proof.v.  Model: model/Group.v (coordinator barrier || member life cycle with
   the delivery gate, ghost clock).  Boundary traces of real consumer groups under the simulator
   must be accepted by the model (harness/c05.py). *)
From Coq Require Import List Bool Arith.
From Verif Require Import Group C05_proof.
Import ListNotations.

(* what a member adopts (and reports through assignment()) is exactly the entry SyncGroup
   distributed to it for that generation *)
Theorem c05_adopted_is_distributed : forall s m g a s',
  step s (AssignBegin m g a) = Some s' ->
  exists r d, find_gen g (hist s) = Some r /\ g_dist r = Some d /\
              a = match lookup m d with Some l => l | None => [] end /\
              owned (get s' m) = a /\
              (ph (get s m) = PJoined g \/
               (* a re-sent JoinGroup answered with the still current generation the member belongs to *)
               (ph (get s m) = PJoining /\ g = latest_gen s /\ In m (g_members r))).
Proof.
  intros s m g a s'. cbn [step].
  destruct (find_gen g (hist s)) as [r|] eqn:Ef; [|discriminate].
  destruct (assign_ok s m g) eqn:Eg; [|discriminate].
  destruct (g_dist r) as [d|] eqn:Ed; [|discriminate].
  destruct (list_eqb a _) eqn:El; [|discriminate]. intros H. injection H as <-.
  exists r, d. split; [reflexivity|]. split; [exact Ed|]. split; [apply list_eqb_eq; exact El|].
  split; [unfold get; cbn [mem]; rewrite lookup_update_eq; reflexivity|].
  unfold assign_ok in Eg. rewrite Ef in Eg. destruct (ph (get s m)) eqn:Ep; try discriminate.
  - right. apply andb_true_iff in Eg. destruct Eg as [E1 E2]. apply Nat.eqb_eq in E1.
    split; [reflexivity|]. split; [exact E1|].
    apply existsb_exists in E2. destruct E2 as (x & Hx & Hxe). apply Nat.eqb_eq in Hxe. subst x. exact Hx.
  - left. apply Nat.eqb_eq in Eg. subst. reflexivity.
Qed.
Print Assumptions c05_adopted_is_distributed.

(* given a pairwise disjoint distribution (what C14 proves of the assignors), the assignments
   two different members adopt in that generation are disjoint *)
Theorem c05_disjoint : forall d m1 m2 p,
  disjoint_b d = true -> NoDup (map fst d) -> m1 <> m2 ->
  In p (match lookup m1 d with Some l => l | None => [] end) ->
  ~ In p (match lookup m2 d with Some l => l | None => [] end).
Proof.
  intros d m1 m2 p Hd Hnd Hne. destruct (lookup m1 d) as [l1|] eqn:E1; [|intros []].
  destruct (lookup m2 d) as [l2|] eqn:E2; [|intros _ []].
  intros Hp. exact (disjoint_lookup d m1 m2 l1 l2 p Hd Hnd E1 E2 Hne Hp).
Qed.
Print Assumptions c05_disjoint.

(* nothing is handed out between the start of on_partitions_revoked and the adoption of the next
   assignment (which on_partitions_assigned then reports), and what is handed out belongs to the
   adopted assignment: a delivery is possible only in phase PStable or PAssigning *)
Theorem c05_silent_after_revoke : forall tr s m p s',
  run init tr = Some s -> step s (Deliver m p) = Some s' ->
  in_rebalance (ph (get s m)) = false /\ gate (get s m) = false /\ In p (owned (get s m)).
Proof.
  intros tr s m p s' H Hs. pose proof (run_inv tr init s inv_init H) as [Im _].
  assert (Ig : forall m, in_rebalance (ph (get s m)) = true -> gate (get s m) = true) by (intros m0; apply Im).
  cbn [step] in Hs.
  destruct (negb (gate (get s m)) && existsb (Nat.eqb p) (owned (get s m))) eqn:E; [|discriminate].
  apply andb_true_iff in E. destruct E as (Hg & Hp). apply negb_true_iff in Hg.
  repeat split; [|exact Hg|].
  - specialize (Ig m). destruct (in_rebalance (ph (get s m))); [|reflexivity]. rewrite Ig in Hg by reflexivity. discriminate.
  - apply existsb_exists in Hp. destruct Hp as (x & Hx & Hxe). apply Nat.eqb_eq in Hxe. subst x. exact Hx.
Qed.
Print Assumptions c05_silent_after_revoke.

(* barrier: every member of generation g finished on_partitions_revoked (clock recorded in the
   generation record) before the JoinGroup barrier of g completed, which is before any member's
   on_partitions_assigned for g started *)
Theorem c05_barrier : forall tr s g m' t,
  run init tr = Some s -> In (g, m', t) (assign_log s) ->
  exists r, find_gen g (hist s) = Some r /\ g_jc r < t /\
            forall m tr_end, In (m, tr_end) (g_rev r) -> tr_end < g_jc r.
Proof. exact barrier. Qed.
Print Assumptions c05_barrier.

(* non-vacuity: a two-member rebalance is accepted, and a delivery inside the revoke window is not *)
Example c05_trace_accepted :
  replay [RevokeBegin 0; RevokeEnd 0; JoinSent 0; JoinComplete 1 [0]; SyncComplete 1 [(0, [0; 1])];
          AssignBegin 0 1 [0; 1]; AssignEnd 0; Deliver 0 1;
          RevokeBegin 1; RevokeEnd 1; JoinSent 1; RevokeBegin 0; RevokeEnd 0; JoinSent 0;
          JoinComplete 2 [0; 1]; SyncComplete 2 [(0, [0]); (1, [1])];
          AssignBegin 1 2 [1]; AssignBegin 0 2 [0]; AssignEnd 0; AssignEnd 1; Deliver 1 1; Deliver 0 0] = 0.
Proof. reflexivity. Qed.
Example c05_delivery_in_window_rejected :
  replay [RevokeBegin 0; RevokeEnd 0; JoinSent 0; JoinComplete 1 [0]; SyncComplete 1 [(0, [0])];
          AssignBegin 0 1 [0]; AssignEnd 0; RevokeBegin 0; Deliver 0 0] = 9.
Proof. reflexivity. Qed.

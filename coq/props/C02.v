(* C02 — Every send future resolves once, with the record's true coordinates.
   Public statements; the lemmas they share are in proof/C02_proof.v, C02_gen_proof.v, C02_dispatch.v.
   Models: model/C02_Done.v (MessageBatch.done/done_noack/failure,
   response decoding per produce version; hand model proved equal to the functions translated from the
   source on every run - gen/DoneGen.v - and differentially tested against the real methods) and model/Producer.v (batch life cycle; tied by trace
   acceptance of the real producer under the simulator). *)
From Coq Require Import ZArith List Bool Lia.
From Verif Require Import DispatchActs ProduceDispatch C02_dispatch.
(* C02_Done comes after DispatchActs: [RNone] below is the resolution without metadata, not the dispatch's return value *)
From Verif Require Import Imp IncrSeq Producer C01_proof C02_Done C02_proof DoneGen C02_gen_proof.
Import ListNotations.
Open Scope Z_scope.

(* the i-th unresolved future gets offset = base + rel_i (an unknown base offset, -1, stays -1: the reply to a
   duplicate whose metadata the broker no longer retains); its own timestamp and type 0 when the
   broker reports -1 (CreateTime), else the broker's timestamp and type 1; already resolved
   futures are untouched; nothing else is emitted *)
Theorem c02_done_coordinates : forall base bts ls fs k r,
  In (k, r) (done base bts ls fs) <->
  exists f, nth_error fs k = Some f /\ f_done f = false /\
    r = RMeta (if base <? 0 then -1 else base + f_rel f) (if bts =? -1 then f_ts f else bts) (if bts =? -1 then 0 else 1) ls.
Proof.
  intros base bts ls fs k r. unfold done. rewrite done_aux_eq, for_pending_aux_spec. split.
  - intros (j & f & -> & H). exists f. exact H.
  - intros (f & H). exists k, f. split; [reflexivity|exact H].
Qed.
Print Assumptions c02_done_coordinates.

(* tie T: the three resolution methods as translated from aiokafka/producer/message_accumulator.py on this run
   (gen/DoneGen.v) ARE the model functions the statements of this file speak about, for every input *)
Theorem c02_done_is_translated : forall base bts ls fs,
  DoneGen.done_py base bts ls fs = done base bts ls fs /\
  DoneGen.done_noack_py fs = done_noack fs /\
  DoneGen.failure_py fs = failure fs.
Proof. intros. exact (conj (done_py_eq base bts ls fs) (conj (done_noack_py_eq fs) (failure_py_eq fs))). Qed.
Print Assumptions c02_done_is_translated.

(* hence the coordinates statement holds of the translated source function itself *)
Theorem c02_done_coordinates_of_source : forall base bts ls fs k r,
  In (k, r) (DoneGen.done_py base bts ls fs) <->
  exists f, nth_error fs k = Some f /\ f_done f = false /\
    r = RMeta (if base <? 0 then -1 else base + f_rel f) (if bts =? -1 then f_ts f else bts) (if bts =? -1 then 0 else 1) ls.
Proof. intros. rewrite done_py_eq. apply c02_done_coordinates. Qed.
Print Assumptions c02_done_coordinates_of_source.

(* the batch's own future (returned by send_batch()): base offset and the broker's timestamp *)
Theorem c02_batch_future_of_source : forall base bts ls,
  DoneGen.done_main_py base bts ls = RMeta base bts (if bts =? -1 then 0 else 1) ls.
Proof. reflexivity. Qed.
Print Assumptions c02_batch_future_of_source.

(* an acknowledgement without a base offset (a duplicate whose metadata the broker no longer retains: base_offset -1)
   names no offset for any record of the batch (repair F43: it used to report -1 + relative offset) *)
Theorem c02_unknown_base_offset_names_no_offset : forall base bts ls fs k r,
  base < 0 -> In (k, r) (DoneGen.done_py base bts ls fs) -> exists ts ty, r = RMeta (-1) ts ty ls.
Proof.
  intros base bts ls fs k r Hb H. rewrite done_py_eq in H. apply c02_done_coordinates in H.
  destruct H as (f & _ & _ & ->). apply Z.ltb_lt in Hb. rewrite Hb. eauto.
Qed.
Print Assumptions c02_unknown_base_offset_names_no_offset.

(* each future is resolved at most once by one call *)
Theorem c02_done_once : forall base bts ls fs, NoDup (map fst (done base bts ls fs)).
Proof. intros. unfold done. rewrite done_aux_eq. apply for_pending_aux_nodup. Qed.
Print Assumptions c02_done_once.

(* acks = 0: every resolution carries no metadata *)
Theorem c02_acks0 : forall fs k r, In (k, r) (done_noack fs) -> r = RNone.
Proof.
  intros fs k r H. unfold done_noack in H. rewrite all_aux_eq in H.
  apply for_pending_aux_spec in H. destruct H as (_ & _ & _ & _ & _ & ->). reflexivity.
Qed.
Print Assumptions c02_acks0.

(* in every accepted run each accepted record is acknowledged or failed at most once in total *)
Theorem c02_once : forall tr s' vs r,
  run init0 tr = Some (s', vs) -> cnt r (accepted s') = 1%nat ->
  (cnt r (acked s') + cnt r (failed s') <= 1)%nat.
Proof. intros tr s' vs r H H1. pose proof (run_bal tr init0 s' vs bal_init0 H r). lia. Qed.
Print Assumptions c02_once.

(* flush()/stop() may return only when every previously accepted record is resolved *)
Theorem c02_flush_stop_wait : forall tr s' vs s'' o r,
  run init0 tr = Some (s', vs) -> step s' FlushRet = Some (s'', o) ->
  (cnt r (acked s') + cnt r (failed s'))%nat = cnt r (accepted s').
Proof.
  intros tr s' vs s'' o r H HF. pose proof (run_bal tr init0 s' vs bal_init0 H r) as B.
  cbn [step] in HF. unfold pend_recs in B.
  destruct (pend s'); [discriminate|]. destruct (uq s'); [|discriminate].
  cbn [concat] in B. change (cnt r []) with O in B. lia.
Qed.
Print Assumptions c02_flush_stop_wait.

(* with idempotence (and no sequence wrap within the run) retriable faults alone never fail
   an accepted record: the failed list stays empty in every accepted run *)
Theorem c02_idem_no_failure_partial : forall tr s' vs,
  count_accepts tr < 2147483648 -> run init0 tr = Some (s', vs) -> failed s' = [].
Proof.
  (* the last conjunct of [idem_run_correct], [failed s' = failed init0] *)
  intros tr s' vs B H. apply (idem_run_correct init0 tr s' vs inv_init0 B H).
Qed.
Print Assumptions c02_idem_no_failure_partial.

(* liveness at model level, stated and not proved: from every state of the invariant some run resolves everything *)
Definition C02_eventual_full : Prop :=
  forall s, Inv s -> exists tr s' vs, run s tr = Some (s', vs) /\ uq s' = [] /\ pend s' = None.
(* what is proved of it: a fault-free round of the sender resolves the head batch, so after faults cease every
   accepted record is resolved within (number of queued batches) rounds.  "Bounded time" of the full statement
   is virtual time in the simulator (monitor) and rounds here — hence partial. *)
Theorem c02_fault_free_round_partial : forall s b rest,
  Inv s -> pend s = None -> uq s = b :: rest ->
  base s + zlen' (accepted s) < 2147483648 ->
  exists s', run s [Drain; Arrive; ReplyOk] = Some (s', [Appended]) /\
             uq s' = rest /\ pend s' = None /\ acked s' = acked s ++ b.
Proof.
  intros s b rest [_ In Ie _ _ _ _] Hp Hq _. unfold pnl in In. rewrite Hp in In.
  change (zlen' []) with 0 in In. rewrite Z.add_0_r, <- Ie in In.
  cbn [run step]. rewrite Hp, Hq. cbn [pend ploc bstate pseq].
  rewrite (verdict_in_sequence _ _ _ In). cbn.
  eexists. split; [reflexivity|]. repeat split.
Qed.
Print Assumptions c02_fault_free_round_partial.

(* The Produce-response dispatch, regenerated from sender.py (handle_response, _can_retry) and errors.py
   (retriable / invalid_metadata attributes) on every run and validated against the real handler for every code
   -1..100 x idempotent x expired. *)

(* "With idempotence enabled, retriable faults alone never fail an accepted record": whatever
   retriable code a Produce reply carries, and however old the batch is, it is re-enqueued *)
Theorem c02_retriable_never_fails_idempotent : forall c expired, In c kafka_produce_retriable ->
  has AFail (produceDispatch c true expired) = false /\ has AReenqueue (produceDispatch c true expired) = true.
Proof.
  intros c expired Hc. rewrite (retriable_reenqueued c true expired (listed_retriable c Hc) eq_refl).
  destruct (invalid_metadata c); split; reflexivity.
Qed.
Print Assumptions c02_retriable_never_fails_idempotent.

(* without idempotence the same holds until the batch has expired *)
Theorem c02_retriable_retried_until_expiry : forall c idem, In c kafka_produce_retriable ->
  has AReenqueue (produceDispatch c idem false) = true.
Proof.
  intros c idem Hc. rewrite (retriable_reenqueued c idem false (listed_retriable c Hc) (andb_false_r _)).
  destruct (invalid_metadata c); reflexivity.
Qed.
Print Assumptions c02_retriable_retried_until_expiry.

(* leadership errors also start a metadata refresh (needed to find the new leader) *)
Theorem c02_leader_errors_refresh_metadata : forall c idem, In c leader_errors ->
  has AMetadataUpdate (produceDispatch c idem false) = true.
Proof.
  intros c idem Hc. destruct (leader_errors_listed c Hc) as (R & M).
  rewrite (retriable_reenqueued c idem false R (andb_false_r _)), M. reflexivity.
Qed.
Print Assumptions c02_leader_errors_refresh_metadata.

Theorem c02_duplicate_sequence_is_success : forall idem expired,
  produceDispatch DUPLICATE_SEQUENCE_NUMBER idem expired = [ADone].
Proof. intros [] []; reflexivity. Qed.
Print Assumptions c02_duplicate_sequence_is_success.

(* for every integer error code: a reply resolves, fails or re-enqueues the batch - exactly one of them *)
Theorem c02_reply_has_exactly_one_outcome : forall c idem expired,
  n_outcomes (produceDispatch c idem expired) = 1%nat.
Proof.
  intros c idem expired. unfold produceDispatch, canRetry.
  destruct (c =? 0); [reflexivity|].
  destruct (c =? 46); [reflexivity|].
  destruct (negb idem && expired), (retriable c), (invalid_metadata c), (c =? 47), (c =? 29); reflexivity.
Qed.
Print Assumptions c02_reply_has_exactly_one_outcome.

(* a failure happens only for a non-retriable code, or for an expired batch of a non-idempotent producer *)
Theorem c02_failure_only_if : forall c idem expired,
  has AFail (produceDispatch c idem expired) = true -> retriable c = false \/ (idem = false /\ expired = true).
Proof.
  intros c idem expired. unfold produceDispatch, canRetry.
  destruct (c =? 0); [discriminate|].
  destruct (c =? 46); [discriminate|].
  destruct idem, expired; cbn [negb andb]; destruct (retriable c); cbn [negb]; auto;
    destruct (invalid_metadata c); discriminate.
Qed.
Print Assumptions c02_failure_only_if.

Example c02_done_example :
  done 100 (-1) 0 [mkF false 0 1000; mkF true 1 2000; mkF false 2 3000]
  = [(0%nat, RMeta 100 1000 0 0); (2%nat, RMeta 102 3000 0 0)].
Proof. reflexivity. Qed.

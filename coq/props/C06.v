(* C06 — Group membership converges and is not disturbed by the member itself.
   Public statements.  (i) model/C06_JoinScript.v: perform_group_join as a function of the
   coordinator's replies, tied to the real method by exhaustive differential testing over reply
   scripts (harness/c06.py), and the error-dispatch chains of the handlers, code by code.
   (ii) The convergence clause is proved on the quiet-period model model/C06_Converge.v:
   [c06_converged_closed], [c06_quiet_progress], [c06_quiet_converges], [c06_quiet_schedule_exists]
   at the end of this file, with what they assume and what they leave out.  It is NOT proved over
   the membership model Group.v: that statement, [C06_converges_full], stays visible below as a
   definition.  On the real consumers the clause is decided per run by a monitor under the
   simulator (quiet period => all live members in the latest generation, heartbeating, full
   coverage, no further rebalance). *)
From Coq Require Import List Bool Arith Lia.
From Coq Require Import ZArith.
From Verif Require Import C06_JoinScript Group.
From Verif Require Import DispatchActs C06_Codes C06_dispatch
  HeartbeatDispatch JoinRetryDispatch JoinDispatch SyncDispatch CommitDispatch.
Close Scope Z_scope.
Import ListNotations.

(* every JoinGroup request advertises all configured strategies, in preference order *)
Theorem c06_join_advertises_all : forall rs asg mid,
  Forall (fun q => match q with RJoin ps _ => ps = asg | RSync _ _ _ => True end)
         (fst (join_script asg mid rs)).
Proof.
  assert (One : forall asg mid, Forall (fun q => match q with RJoin ps _ => ps = asg | RSync _ _ _ => True end)
                                       [RJoin asg mid]).
  { intros. constructor; [reflexivity|constructor]. }
  induction rs as [|r rs IH]; intros asg mid; cbn [join_script].
  - apply One.
  - destruct r as [g m l|e| | | |]; [| |apply One..].
    + cbn [fst]. constructor; [reflexivity|]. constructor; [exact I|constructor].
    + destruct e as [m| | | | |]; try apply One.
      specialize (IH asg m). destruct (join_script asg m rs) as [q o]. cbn [fst] in *.
      constructor; [reflexivity|exact IH].
Qed.
Print Assumptions c06_join_advertises_all.

(* a successful JoinGroup reply is followed by this member's SyncGroup for that generation,
   carrying the identity the reply assigned — never by another JoinGroup *)
Theorem c06_join_then_sync : forall asg mid g m l rs,
  fst (join_script asg mid (JoinOk g m l :: rs)) = [RJoin asg mid; RSync g m l].
Proof. reflexivity. Qed.
Print Assumptions c06_join_then_sync.

(* ... also after any number of MEMBER_ID_REQUIRED rounds *)
Theorem c06_join_then_sync_after_member_id_required : forall ms asg mid g m l rs,
  exists joins,
    fst (join_script asg mid (map (fun x => JoinErr (MemberIdRequired x)) ms ++ JoinOk g m l :: rs))
    = joins ++ [RSync g m l] /\
    Forall (fun q => match q with RJoin ps _ => ps = asg | RSync _ _ _ => False end) joins /\
    length joins = S (length ms).
Proof.
  induction ms as [|x ms IH]; intros asg mid g m l rs; cbn [map app join_script].
  - exists [RJoin asg mid]. repeat split. constructor; [reflexivity|constructor].
  - destruct (IH asg x g m l rs) as (joins & Hq & Hf & Hl).
    destruct (join_script asg x (map (fun x0 => JoinErr (MemberIdRequired x0)) ms ++ JoinOk g m l :: rs)) as [q o].
    cbn in *. exists (RJoin asg mid :: joins). subst q. repeat split.
    + constructor; [reflexivity|exact Hf].
    + cbn. rewrite Hl. reflexivity.
Qed.
Print Assumptions c06_join_then_sync_after_member_id_required.

(* the member id used in a retry is the one the coordinator returned *)
Theorem c06_member_id_required_retry : forall asg mid m rs,
  exists q o, join_script asg mid (JoinErr (MemberIdRequired m) :: rs) = (RJoin asg mid :: q, o) /\
              join_script asg m rs = (q, o).
Proof.
  intros. cbn [join_script]. destruct (join_script asg m rs) as [q o]. exists q, o. split; reflexivity.
Qed.
Print Assumptions c06_member_id_required_retry.

(* error replies: the dispatch chains below are regenerated from group_coordinator.py on every
   run (translator/dispatch2gallina.py) and validated against the real handlers; the code sets are
   what a Kafka coordinator can answer (model/C06_Codes.v).  A chain is a nest of conditionals on one
   integer: statements over a finite list of codes are proved by computation ([forall_in_by_compute]),
   statements over every integer by cases on the comparisons. *)

(* no coordinator error reply to a Heartbeat ends the member: each triggers its recovery *)
Theorem c06_heartbeat_errors_recoverable :
  forall c, In c kafka_heartbeat_codes -> recovers (heartbeatDispatch c) = true.
Proof. apply forall_in_by_compute. vm_compute. reflexivity. Qed.
Print Assumptions c06_heartbeat_errors_recoverable.

(* ... REBALANCE_IN_PROGRESS on a heartbeat asks for a rejoin and keeps member id and coordinator *)
Theorem c06_heartbeat_rebalance_rejoins_only :
  has ARequestRejoin (heartbeatDispatch 27%Z) = true /\
  has AResetGeneration (heartbeatDispatch 27%Z) = false /\
  has ACoordinatorDead (heartbeatDispatch 27%Z) = false.
Proof. repeat split; vm_compute; reflexivity. Qed.
Print Assumptions c06_heartbeat_rebalance_rejoins_only.

Theorem c06_heartbeat_actions :
  (forall c, In c [15; 16]%Z -> has ACoordinatorDead (heartbeatDispatch c) = true) /\
  (forall c, In c [22; 25]%Z -> has AResetGeneration (heartbeatDispatch c) = true).
Proof. split; apply forall_in_by_compute; vm_compute; reflexivity. Qed.
Print Assumptions c06_heartbeat_actions.

Theorem c06_join_errors_recoverable :
  forall c, In c kafka_join_codes -> recovers (joinDispatch c) = true.
Proof. apply forall_in_by_compute. vm_compute. reflexivity. Qed.
Print Assumptions c06_join_errors_recoverable.

Theorem c06_join_member_id_required :
  joinRetryDispatch MEMBER_ID_REQUIRED = [ASetMemberId; ARetryJoin] /\
  (forall c, c <> MEMBER_ID_REQUIRED -> joinRetryDispatch c = []).
Proof.
  split; [vm_compute; reflexivity|].
  intros c Hc. unfold joinRetryDispatch, MEMBER_ID_REQUIRED in *.
  destruct (Z.eqb_spec c 79%Z) as [E|E]; [contradiction|reflexivity].
Qed.
Print Assumptions c06_join_member_id_required.

Theorem c06_join_fatal_reported :
  forall c, In c kafka_join_fatal_codes -> joinDispatch c = [ARaiseSame].
Proof.
  intros c Hc. unfold kafka_join_fatal_codes in Hc. simpl in Hc.
  destruct Hc as [<-|[<-|[<-|[<-|[]]]]]; vm_compute; reflexivity.
Qed.
Print Assumptions c06_join_fatal_reported.

Theorem c06_sync_errors_recoverable :
  forall c, In c kafka_sync_codes -> recovers (syncDispatch c) = true.
Proof. apply forall_in_by_compute. vm_compute. reflexivity. Qed.
Print Assumptions c06_sync_errors_recoverable.

(* for every integer: any SyncGroup error requests a rejoin before anything else *)
Theorem c06_sync_error_requests_rejoin :
  forall c, c <> 0%Z -> exists rest, syncDispatch c = ARequestRejoin :: rest.
Proof.
  intros c Hc. unfold syncDispatch.
  destruct (Z.eqb_spec c 0%Z) as [E|E]; [contradiction|]. eexists. reflexivity.
Qed.
Print Assumptions c06_sync_error_requests_rejoin.

Theorem c06_commit_error_actions :
  (forall c, In c kafka_commit_codes -> fatal (commitDispatch c) = false /\ has AErrored (commitDispatch c) = true) /\
  (forall c, In c [15; 16]%Z -> has ACoordinatorDead (commitDispatch c) = true) /\
  (forall c, In c [22; 25]%Z -> has AResetGeneration (commitDispatch c) = true) /\
  has ARequestRejoin (commitDispatch 27%Z) = true.
Proof.
  split; [|split; [|split]].
  - assert (H : forall c, In c kafka_commit_codes ->
                negb (fatal (commitDispatch c)) && has AErrored (commitDispatch c) = true)
      by (apply forall_in_by_compute; vm_compute; reflexivity).
    intros c Hc. specialize (H c Hc).
    apply andb_true_iff in H. destruct H as [H1 H2]. apply negb_true_iff in H1. split; assumption.
  - apply forall_in_by_compute. vm_compute. reflexivity.
  - apply forall_in_by_compute. vm_compute. reflexivity.
  - vm_compute. reflexivity.
Qed.
Print Assumptions c06_commit_error_actions.

(* the hand model of perform_group_join used above classifies join errors as the source does *)
Theorem c06_join_model_agrees_with_source : forall e c,
  In c (code_of e) -> classify_join joinRetryDispatch joinDispatch c = model_class e.
Proof.
  intros e c Hc. destruct e; simpl in Hc;
    repeat match goal with H : _ \/ _ |- _ => destruct H as [<-|H] | H : False |- _ => destruct H end;
    vm_compute; reflexivity.
Qed.
Print Assumptions c06_join_model_agrees_with_source.

(* Convergence over the membership model Group.v (a definition: NOT proved): from every reachable
   state of that model a continuation exists after which every member is stable.  What is proved
   instead, over model/C06_Converge.v, is at the end of this file. *)
Definition C06_converges_full : Prop :=
  forall tr s, Group.run Group.init tr = Some s ->
  exists tr' s', Group.run s tr' = Some s' /\
    forall m x, Group.lookup m (Group.mem s') = Some x -> Group.ph x = Group.PStable.

Example c06_script_example :
  join_script [1; 2] 0 [JoinErr (MemberIdRequired 7); JoinOk 3 7 true; SyncOk]
  = ([RJoin [1; 2] 0; RJoin [1; 2] 7; RSync 3 7 true], Joined).
Proof. reflexivity. Qed.

(* The convergence clause on the quiet-period model (model/C06_Converge.v; proofs proof/C06_conv_*.v, C06_converge.v).
   The model: the group coordinator (after harness/simkit/groupcoord.py, Kafka's classic protocol) composed with any
   number of members; a member's reaction to a reply code is the translated dispatch chain of that handler (above) applied
   to the code the modelled coordinator answers; quiet steps only: member actions (find the coordinator, JoinGroup,
   SyncGroup, heartbeat, commit - each split into request and reply) and the expiry of orphan ids.  Tied to the real
   consumers by trace acceptance on every simulated run (harness/c06_converge.py): the quiet suffix of each run is
   replayed inside Coq from a state read off the real objects, which must satisfy [inv_b].
   Timing / fairness assumptions (what the quiet steps do not contain): live members answer within the session,
   rebalance and request timeouts; only orphan ids expire, each at most once; FindCoordinator answers the current
   coordinator; subscriptions do not change (A1-A5 in the model file).

   What the four theorems below say: for EVERY state satisfying [inv_b], for every number of members and EVERY schedule
   of quiet steps - convergence in the generation the coordinator ends in, heartbeat tasks running, no further JoinGroup.
   They are statements about this model, not about Group.v: [C06_converges_full] above follows from none of them.
   What remains outside: real time
   (the assumptions above are hypotheses on the schedule, not derived from timeouts), the environment's actions themselves
   (joins, leaves, crashes, failovers, injected errors, subscription changes: they are what leads to the state the
   theorems start from - that this state satisfies [inv_b] is checked on every simulated run, not proved), and the
   assignment-coverage clause (C14 / the simulation monitor). *)
(* imported only here: C06_Converge reuses names of C06_JoinScript and C06_Codes ([reply], [outcome], [obs]) *)
From Verif Require Import C06_Converge C06_conv_progress C06_converge.

(* A converged state (coordinator Stable, every live member settled in its generation with the heartbeat task
   running and no rejoin flag, no orphan ids) stays converged under every quiet step; every step enabled in it
   is a no-op heartbeat / commit exchange; none is a JoinGroup: no further rebalance. *)
Theorem c06_converged_closed : forall s l s',
  inv_b s = true -> converged_b s = true -> step s l = Some s' ->
  converged_b s' = true /\ inv_b s' = true /\ is_send_join l = false /\ noop_b s l = true.
Proof.
  intros s l s' Hi Hc Hs. destruct (step_mu s l s' Hi Hs) as (Hi' & A & B). pose proof (converged_mu0 s Hi Hc) as M0.
  (* [mu] cannot go below 0: the step is a no-op, hence not a JoinGroup, and [mu] is still 0 *)
  destruct (noop_b s l) eqn:N; [|specialize (A eq_refl); lia].
  repeat split; try assumption.
  - apply (mu_zero_converged s' Hi'). lia.
  - destruct l; try reflexivity. discriminate N.
Qed.
Print Assumptions c06_converged_closed.

(* The variant: in every state satisfying the invariant, EVERY enabled quiet step preserves the invariant, strictly
   decreases [mu] unless it is a no-op heartbeat / commit exchange (which does not increase it); and unless the state is
   converged a real step is enabled, at the latest after one no-op that consumes a silent reply still on the wire. *)
Theorem c06_quiet_progress : forall s, inv_b s = true ->
  (forall l s', step s l = Some s' ->
     inv_b s' = true /\ (noop_b s l = false -> mu s' < mu s) /\ (noop_b s l = true -> mu s' <= mu s))
  /\ (converged_b s = false ->
      exists l s', step s l = Some s' /\
        (noop_b s l = false \/ (exists l2 s2, step s' l2 = Some s2 /\ noop_b s' l2 = false))).
Proof.
  intros s Hi. split; [|exact (progress_all s Hi)].
  intros l s' Hs. destruct (step_mu s l s' Hi Hs) as (A & B & C). auto.
Qed.
Print Assumptions c06_quiet_progress.

(* Hence: every quiet execution from such a state contains at most [mu s] steps that are not no-ops, and every
   execution that contains that many ends converged - every live member Stable in the coordinator's generation with
   its heartbeat task running and no rejoin flag.  (No bound on the number of members; no-ops are not counted, so the
   fairness needed is only that real steps keep being taken while enabled - which [c06_quiet_progress] guarantees
   they are.) *)
Theorem c06_quiet_converges : forall s ls s', inv_b s = true -> run s ls = Some s' ->
  inv_b s' = true /\ count_real s ls <= mu s /\
  (mu s <= count_real s ls ->
     converged_b s' = true /\
     forall m, In m (s_ms s') -> m_live m = true ->
       m_gen m = c_gen (s_c s') /\ m_hb m = true /\ m_rejoin m = false /\ m_ph m = PIdle
       /\ In (m_id m) (ids (c_ents (s_c s'))) /\ c_st (s_c s') = CStable).
Proof.
  intros s ls s' Hi Hr. destruct (run_bound ls s s' Hi Hr) as [Hi' Hb].
  split; [exact Hi'|]. split; [lia|]. intros Hge.
  assert (B : converged_b s' = true) by (apply (mu_zero_converged s' Hi'); lia).
  split; [exact B|]. intros m Hin L. exact (converged_members s' Hi' B m Hin L).
Qed.
Print Assumptions c06_quiet_converges.

(* ... and such an execution exists from every state satisfying the invariant. *)
Theorem c06_quiet_schedule_exists : forall s, inv_b s = true ->
  exists ls s', run s ls = Some s' /\ converged_b s' = true /\ inv_b s' = true.
Proof. intros s Hi. exact (quiet_schedule_exists (mu s) s Hi (le_n _)). Qed.
Print Assumptions c06_quiet_schedule_exists.

(* non-vacuity: three members, one with a stale generation, one orphan id in the table *)
Definition c06_example_state : state :=
  mkS (mkC 5 CStable [mkE 1 false false; mkE 2 false false; mkE 3 false false; mkE 7 false false] [] 1)
      [mkM 0 true 1 5 PIdle false CkOk true 0 None None None;
       mkM 1 true 2 4 PIdle false CkOk true 0 None None None;
       mkM 2 true 3 5 PIdle false CkOk true 0 None None None].
Definition c06_example_schedule : list label :=
  [LHbSend 1; LHbRecv 1; LSendJoin 1 true 8; LRecv 1; LSendJoin 1 true 9; LHbSend 0; LHbRecv 0; LSendJoin 0 true 9;
   LHbSend 2; LHbRecv 2; LSendJoin 2 true 9; LExpire 2 false; LExpire 7 false; LRecv 0; LSendSync 0; LRecv 0; LRecv 1;
   LSendSync 1; LRecv 1; LRecv 2; LSendSync 2; LRecv 2].
Example c06_example_invariant : inv_b c06_example_state = true /\ converged_b c06_example_state = false.
Proof. split; vm_compute; reflexivity. Qed.
Example c06_example_converges :
  match run c06_example_state c06_example_schedule with
  | Some s' => converged_b s' && inv_b s' && (c_gen (s_c s') =? 6) && (count_real c06_example_state c06_example_schedule =? 22)
  | None => false
  end = true.
Proof. vm_compute. reflexivity. Qed.

(* C09 — Record batches round-trip and both codec implementations agree.
   Public statements, derived from the lemmas of coq/proof/C09_*.v.  Models: coq/model/C09_*.v
   (hand-written from default_records.py/.pyx, legacy_records.py/.pyx, memory_records.py/.pyx,
   cutil.pyx; tied to both implementations by the correspondence of harness/c09.py on every run);
   VarintEnc / VarintSize / VarintDec are regenerated from aiokafka/record/util.py on every run
   (tie T).
   [impl] = Py | Cy selects the pure-Python or the compiled behaviour where they differ. *)
From Coq Require Import ZArith List Bool Lia.
From Verif Require Import Imp C09Bytes C09_Crc C09_Varint C09_RecordV2 C09_Legacy C09_MemRecords
  C09_Valid VarintEnc VarintSize VarintDec C09_varint C09_split C09_v2 C09_legacy C09_varint_cy C09_legacy_wrapper C09_oversize.
Import ListNotations.
Open Scope Z_scope.

(* decode (prefix ++ encode v ++ rest) at the prefix's end = (v, position after the encoding),
   for every int64 v *)
Theorem c09_varint_roundtrip : forall v pre rest, int64 v ->
  VarintDec.py (pre ++ VarintEnc.post v ++ rest) (blen pre)
  = Ok (v, blen pre + blen (VarintEnc.post v)).
Proof. intros v pre rest H. rewrite enc_py_spec by exact H. apply dec_py_spec. exact H. Qed.
Print Assumptions c09_varint_roundtrip.

(* size_of_varint v = number of bytes encode_varint writes, between 1 and 10 *)
Theorem c09_varint_size : forall v, int64 v ->
  VarintSize.py v = Ok (blen (VarintEnc.post v)) /\ 1 <= blen (VarintEnc.post v) <= 10.
Proof.
  intros v H. rewrite enc_py_spec by exact H. split.
  - rewrite size_py_spec by exact H. f_equal. apply varint_size_len.
  - apply varint_enc_len_bounds.
Qed.
Print Assumptions c09_varint_size.

(* the translated encoder is the zig-zag / base-128 specification used by the record models *)
Theorem c09_varint_enc_is_spec : forall v, int64 v -> VarintEnc.post v = varint_enc v.
Proof. exact enc_py_spec. Qed.
Print Assumptions c09_varint_enc_is_spec.

(* the compiled versions (model of cutil.pyx, uint64 arithmetic) agree with the Python ones *)
Theorem c09_varint_impls_agree : forall v, int64 v ->
  cy_encode_varint64 v = VarintEnc.post v
  /\ Ok (cy_size_of_varint64 v) = VarintSize.py v
  /\ forall rest, cy_decode_varint64 (cy_encode_varint64 v ++ rest) = Some (v, rest).
Proof.
  intros v H. split; [|split].
  - rewrite cy_encode_spec, enc_py_spec by exact H. reflexivity.
  - rewrite cy_size_spec, size_py_spec by exact H. reflexivity.
  - intros rest. rewrite cy_encode_spec by exact H. apply cy_decode_spec. exact H.
Qed.
Print Assumptions c09_varint_impls_agree.

(* Outside the property (the value is used nowhere): encode_varint_py RETURNS the number of
   bytes written only for encodings of up to 5 bytes; its general loop returns one less. *)
Theorem c09_note_encode_return_value : forall v, int64 v -> zigzag v <= 34359738367 ->
  VarintEnc.py v = Ok (blen (VarintEnc.post v)).
Proof. intros v H Hs. rewrite enc_py_spec by exact H. apply enc_py_returns; assumption. Qed.
Print Assumptions c09_note_encode_return_value.
Example c09_note_encode_return_value_long :
  VarintEnc.py 9223372036854775807 = Ok 9 /\ blen (VarintEnc.post 9223372036854775807) = 10.
Proof. split; vm_compute; reflexivity. Qed.

(* boundaries of the encoded length (63/64, 8191/8192, ...) *)
Example c09_varint_boundaries :
  map (fun v => blen (varint_enc v)) [63; 64; -64; -65; 8191; 8192; 1048575; 1048576; 2147483647;
       2147483648; 9223372036854775807; -9223372036854775808]
  = [1; 2; 1; 2; 2; 3; 3; 4; 5; 5; 10; 10].
Proof. vm_compute. reflexivity. Qed.

(* For every codec pair with decompress (compress x) = Some x, both implementations, every valid
   configuration, every sequence of append() calls with valid records (null/empty keys and values,
   any headers incl. null values, any non-negative timestamps in any order, any batch_size — the
   refused appends simply do not appear), and every broker stamping (base offset, leader epoch,
   optional LogAppendTime, control bit): reading the stamped batch yields exactly the accepted
   records with offset = base + offset, timestamp = own (CreateTime) or the log-append time. *)
Theorem c09_v2_roundtrip :
  forall (compress : Z -> bytes -> bytes) (decompress : Z -> bytes -> option bytes),
  (forall c x, decompress c (compress c x) = Some x) ->
  forall i c s rs,
    valid_cfg c -> valid_stamp s -> Forall valid_rec rs -> Z.of_nat (List.length rs) < TWO31 ->
    let st := fst (appends i c b_init rs) in
    let ms := snd (appends i c b_init rs) in
    blen (build compress i c st) < TWO31 ->
    exists h, read_batch decompress (stamp s (build compress i c st))
              = Some (h, map (expect s) (accepted rs ms)).
Proof.
  intros compress decompress Hcodec i c s rs Hc Hs Hrs Hn st ms.
  destruct (appends_init i c rs Hrs) as (Est & _ & _ & Hv). fold st ms in Est, Hv. rewrite Est.
  pose proof (accepted_length rs ms) as Hal.
  apply (build_read compress decompress Hcodec); [assumption..|lia].
Qed.
Print Assumptions c09_v2_roundtrip.

(* The produced bytes: at least the 61-byte header; Length field (bytes 8..12) = total - 12;
   base offset 0, leader epoch -1, magic 2; CRC field = CRC-32C of everything from the attributes
   field (byte 21) to the end; attributes as configured; last offset delta, first / max timestamp,
   producer id / epoch / base sequence, record count of the accepted records; payload = the framed
   records (or their compression). *)
Theorem c09_v2_wellformed :
  forall (compress : Z -> bytes -> bytes) i c rs,
    valid_cfg c -> Forall valid_rec rs -> Z.of_nat (List.length rs) < TWO31 ->
    let st := fst (appends i c b_init rs) in
    let acc := accepted rs (snd (appends i c b_init rs)) in
    let b := build compress i c st in
    blen b < TWO31 ->
    let use := uses_codec compress i c (region_of acc) in
    let payload := if use then compress (c_codec c) (region_of acc) else region_of acc in
    61 <= blen b /\ signed_be (slice 8 12 b) = blen b - 12 /\
    read_header b =
      Some (mkH 0 (blen b - 12) (-1) 2 (crc32c (skipn 21 b)) (attributes c use) (last_off acc)
                (hdr_first i acc) (hdr_max i acc) (c_pid c) (c_pepoch c) (c_bseq c)
                (Z.of_nat (List.length acc)), payload)
    /\ validate_crc b = true.
Proof.
  intros compress i c rs Hc Hrs Hn st acc.
  destruct (appends_init i c rs Hrs) as (Est & _ & _ & Hv). fold st acc in Est, Hv. rewrite Est.
  intros b Hlen use payload.
  pose proof (accepted_length rs (snd (appends i c b_init rs))) as Hal. fold acc in Hal.
  destruct (build_header compress i c acc Hv Hc ltac:(lia) Hlen) as (Hh & H61 & Hl).
  fold b use in Hh, H61. fold payload in Hh, H61. fold b in Hl.
  pose proof (blen_nonneg payload).
  repeat split; try assumption; try lia.
  unfold validate_crc. rewrite Hh. cbn [h_crc]. apply Z.eqb_refl.
Qed.
Print Assumptions c09_v2_wellformed.

(* attribute bits: codec (0 when sent uncompressed), transactional as configured, timestamp-type
   and control bits clear *)
Theorem c09_v2_attribute_bits : forall c use, valid_cfg c ->
  let a := attributes c use in
  Z.land a CODEC_MASK = (if use then c_codec c else 0)
  /\ (Z.land a TXN_MASK =? 0) = negb (c_txn c)
  /\ Z.land a TS_TYPE_MASK = 0 /\ Z.land a CONTROL_MASK = 0 /\ 0 <= a < 32.
Proof.
  intros c use (_ & Hcodec & _) a.
  destruct (attrs_bits c use 0 0 Hcodec (or_introl eq_refl) (or_introl eq_refl))
    as (H1 & H2 & H3 & H4 & H5).
  cbv zeta in *. rewrite !Z.lor_0_r in *. fold a in H1, H2, H3, H4, H5.
  split; [exact H1|]. split; [exact H3|].
  split; [apply Z.eqb_eq; exact H2|]. split; [apply Z.eqb_eq; exact H4|]. lia.
Qed.
Print Assumptions c09_v2_attribute_bits.

(* uncompressed: the builder's output splits into one message per accepted record, each message
   reads back (either reader) as that record with its CRC-32 *)
Theorem c09_legacy_roundtrip : forall i c rs,
  valid_lcfg c -> lc_codec c = 0 -> Forall valid_lrec rs ->
  let buf := fst (lappends c [] rs) in
  let acc := laccepted rs (snd (lappends c [] rs)) in
  lbuild no_compress c buf = Some buf
  /\ split i buf = (map (fun r => (lc_magic c, lmsg_of c r)) acc, Some [])
  /\ Forall (fun r => lread no_decompress i (lc_magic c) (lmsg_of c r) = Some [lexpect c r]
                      /\ lvalidate_crc (lmsg_of c r) = true) acc.
Proof.
  intros i c rs Hc Hcodec Hrs buf acc.
  pose proof (laccepted_valid rs (snd (lappends c [] rs)) Hrs) as Hacc. fold acc in Hacc.
  assert (Hbuf : buf = concat (map (lmsg_of c) acc)) by apply lappends_spec.
  split; [unfold lbuild; rewrite Hcodec; reflexivity|]. split.
  - rewrite Hbuf. apply split_msgs; assumption.
  - apply Forall_impl with (2 := Hacc). intros r Hr.
    split; [apply lread_plain; assumption|apply lvalidate_msg].
Qed.
Print Assumptions c09_legacy_roundtrip.

(* compressed wrapper, after the broker assigned the wrapper's offset (that of the last inner
   message for magic 1) and optionally LogAppendTime: the inner records come back with absolute
   offsets / the wrapper's timestamp.  (The proof does not use blen buf < TWO31.) *)
Theorem c09_legacy_wrapper_roundtrip :
  forall (compress : Z -> bytes -> bytes) (decompress : Z -> bytes -> option bytes),
  (forall c x, decompress c (compress c x) = Some x) ->
  forall i c rs woff lat,
    valid_lcfg c -> 1 <= lc_codec c <= 3 -> ~ (lc_codec c = 3 /\ lc_magic c = 0) ->
    Forall valid_lrec rs ->
    let buf := fst (lappends c [] rs) in
    let acc := laccepted rs (snd (lappends c [] rs)) in
    acc <> [] -> blen buf < TWO31 -> blen (compress (lc_codec c) buf) < TWO31 - 64 ->
    valid_wstamp acc woff lat ->
    exists w, lbuild compress c buf = Some w
      /\ lread decompress i (lc_magic c) (lstamp woff lat w)
         = Some (map (lexpect_wrapped c acc woff lat) acc).
Proof.
  intros compress decompress Hcodec i c rs woff lat Hc Hcod Hlz Hrs buf acc Hne _ Hcomp Hw.
  assert (Hbuf : buf = concat (map (lmsg_of c) acc)) by apply lappends_spec.
  rewrite Hbuf in Hcomp |- *.
  apply (wrapper_roundtrip compress decompress Hcodec); try assumption. apply laccepted_valid, Hrs.
Qed.
Print Assumptions c09_legacy_wrapper_roundtrip.

(* legacy builder: append() refused exactly when offset != 0 and bytes-so-far + message >=
   batch_size; an accepted append adds exactly the message; metadata = its CRC / size / timestamp *)
Theorem c09_legacy_size_accounting : forall c buf r, valid_lcfg c ->
  let after := blen buf + blen (lmsg_of c r) in
  let refuse := negb (r_offset r =? 0) && (lc_batch_size c <=? after) in
  lappend c buf r =
    (if refuse then buf else buf ++ lmsg_of c r,
     if refuse then None
     else Some (mkLMeta (r_offset r) (lmsg_crc c r) (blen (lmsg_of c r)) (lmsg_ts c r))).
Proof.
  intros c buf r Hc after refuse. subst after refuse. rewrite lmsg_len by exact Hc.
  unfold lappend. fold (lmsg_ts c r).
  destruct (negb (r_offset r =? 0) && (lc_batch_size c <=? blen buf + msg_size (lc_magic c) (r_key r) (r_value r)));
    [reflexivity|].
  f_equal. f_equal. f_equal.
  (* the CRC reported in the metadata is the one written at bytes 12..16 *)
  unfold encode_msg, lmsg_crc. cbv zeta.
  set (tail := msg_tail (lc_magic c) 0 (lmsg_ts c r) (r_key r) (r_value r)).
  destruct (msg_layout (r_offset r) (blen tail + 4) (crc32 tail) tail) as (_ & _ & -> & _).
  apply unsigned_be_small. change (256 ^ Z.of_nat 4) with 4294967296. apply crc32_range.
Qed.
Print Assumptions c09_legacy_size_accounting.

(* any concatenation of well-formed batches (each with its own magic byte, any mix) followed by an
   admissible partial tail splits into exactly those batches, each tagged with ITS OWN magic, the
   tail left alone — for the Python and for the compiled splitter *)
Theorem c09_split_concat : forall i bs partial,
  Forall wf_batch bs -> partial_ok partial ->
  split i (concat bs ++ partial) = (map (tag i) bs, Some partial).
Proof. exact split_concat. Qed.
Print Assumptions c09_split_concat.

(* a proper prefix of a well-formed batch is an admissible tail; built v2 batches are
   well-formed for the splitter (c09_v2_wellformed gives the two conditions) *)
Theorem c09_prefix_is_partial : forall b k,
  wf_batch b -> 0 <= k < blen b -> partial_ok (firstn (Z.to_nat k) b).
Proof.
  intros b k [Hb1 Hb2] Hk. unfold partial_ok.
  assert (Hl : blen (firstn (Z.to_nat k) b) = k).
  { unfold blen in *. rewrite firstn_length. lia. }
  rewrite Hl. destruct (Z_lt_le_dec k 12) as [Hlt|Hge]; [left; exact Hlt|right].
  rewrite slice_firstn by lia. rewrite Hb2. lia.
Qed.
Print Assumptions c09_prefix_is_partial.

(* memory_records.pyx before /repo 7c049d4 read the magic at byte 16 of the whole buffer
   ([split_fixed]); that splitter does not have this property: a v2 batch followed by a v1 message *)
Theorem c09_split_fixed_offset_refuted : exists bs,
  Forall wf_batch bs /\ split_fixed (concat bs ++ []) <> (map (tag Cy) bs, Some []).
Proof.
  exists [witness_v2; witness_v1]. split.
  - repeat constructor; vm_compute; try reflexivity; discriminate.
  - intro H. vm_compute in H. discriminate H.
Qed.
Print Assumptions c09_split_fixed_offset_refuted.

(* after any sequence of append() calls: the results (None = refused, else offset / size /
   timestamp) are those of [run_spec] — refusal exactly when the implementation's limit predicate
   holds of the size the uncompressed batch would reach, metadata size = bytes the record
   occupies; size() = 61 + bytes of the accepted records = length of the uncompressed build *)
Theorem c09_size_accounting :
  forall (compress : Z -> bytes -> bytes) i c rs, Forall valid_rec rs ->
    let st := fst (appends i c b_init rs) in
    let ms := snd (appends i c b_init rs) in
    let acc := accepted rs ms in
    ms = fst (run_spec i c [] rs)
    /\ size i st = HEADER_SIZE + blen (region_of acc)
    /\ (0 <= c_codec c <= 4 -> uses_codec compress i c (region_of acc) = false ->
        blen (build compress i c st) = size i st).
Proof.
  intros compress i c rs Hrs st ms acc.
  destruct (appends_init i c rs Hrs) as (Est & Hms & _). fold st ms in Est, Hms. fold acc in Est. rewrite Est.
  assert (Hsize : size i (state_of acc) = HEADER_SIZE + blen (region_of acc)) by (destruct i; reflexivity).
  split; [exact Hms|]. split; [exact Hsize|].
  intros Hcodec Huse. rewrite (build_state compress i c acc Hcodec), Huse.
  rewrite (proj1 (assemble_layout _ _ _ _)), crc_region_len, Hsize. unfold HEADER_SIZE. lia.
Qed.
Print Assumptions c09_size_accounting.

(* the body size that size_in_bytes() of both builders precomputes (it adds the size of the
   length varint) = the bytes of the encoded record body *)
Theorem c09_size_in_bytes : forall delta off r,
  size_of_body delta off r = blen (enc_body delta off r).
Proof. exact size_of_body_len. Qed.
Print Assumptions c09_size_in_bytes.

(* an uncompressed batch larger than batch_size holds a single record (Python predicate) *)
Theorem c09_oversize_only_single : forall c rs, Forall valid_rec rs ->
  let st := fst (appends Py c b_init rs) in
  let acc := accepted rs (snd (appends Py c b_init rs)) in
  c_batch_size c < size Py st -> (List.length acc <= 1)%nat.
Proof.
  intros c rs Hrs st acc.
  destruct (appends_init Py c rs Hrs) as (Est & _ & Hacc & _). fold st acc in Est, Hacc. rewrite Est.
  apply (fits_single Py c). rewrite Hacc. apply run_spec_fits.
  - apply Forall_forall. intros r _ E. discriminate E.
  - intros Hlen. cbn in Hlen. lia.
Qed.
Print Assumptions c09_oversize_only_single.

(* the compiled predicate never refuses offset 0: the same holds of it, from batch_size on, when
   no record after the first has offset 0 *)
Theorem c09_oversize_only_single_compiled : forall c r0 rs, Forall valid_rec (r0 :: rs) ->
  Forall (fun r => r_offset r <> 0) rs ->
  let st := fst (appends Cy c b_init (r0 :: rs)) in
  let acc := accepted (r0 :: rs) (snd (appends Cy c b_init (r0 :: rs))) in
  c_batch_size c <= size Cy st -> (List.length acc <= 1)%nat.
Proof.
  intros c r0 rs Hrs Hoff st acc.
  destruct (appends_init Cy c (r0 :: rs) Hrs) as (Est & _ & Hacc & _). fold st acc in Est, Hacc. rewrite Est.
  apply (fits_single Cy c). rewrite Hacc, run_spec_cons. cbn [snd]. apply run_spec_fits.
  - apply Forall_impl with (2 := Hoff). intros r Hr _. exact Hr.
  - intros Hlen. destruct (refuses Cy c [] r0); cbn in Hlen; lia.
Qed.
Print Assumptions c09_oversize_only_single_compiled.

Example c09_crc32c_check_value : crc32c [49; 50; 51; 52; 53; 54; 55; 56; 57] = 3808858755.  (* 0xE3069283 *)
Proof. exact crc32c_check. Qed.
Example c09_crc32_check_value : crc32 [49; 50; 51; 52; 53; 54; 55; 56; 57] = 3421780262.    (* 0xCBF43926 *)
Proof. exact crc32_check. Qed.
Example c09_crc_tables_from_polynomials : table_c = mk_table POLY_C /\ table_ieee = mk_table POLY_IEEE.
Proof. split; [exact table_c_is_bitwise|exact table_ieee_is_bitwise]. Qed.

(* the hypotheses are satisfiable *)
Example c09_hyps_satisfiable :
  valid_cfg (mkCfg 2 1 true 9223372036854775807 32767 2147483647 16384)
  /\ valid_stamp (mkStamp 4611686018427387904 7 (Some 1600000000000) true)
  /\ Forall valid_rec [mkRec 0 1000 (Some [107]) None [([195; 169], None)];
                       mkRec 1 0 None (Some []) []; mkRec 2 9223372036854775807 (Some []) (Some [1; 2]) []].
Proof.
  repeat constructor; vm_compute; (reflexivity || discriminate).
Qed.

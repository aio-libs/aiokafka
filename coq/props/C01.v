(* C01 — Per-partition produce order; no loss, no duplication under retries.
   Public statements; the lemmas they share are in proof/C01_proof.v, C01_nonidem.v.
   Model: model/Producer.v (per-partition LTS of accumulator + sender + sequence stamping, composed
   with the leader's idempotence rule); the sequence increment is the function TRANSLATED from TransactionManager.increment_sequence_number.
   Traces recorded from the real producer under the simulator must be accepted by this model
   (correspondence, harness/c01.py). *)
From Coq Require Import ZArith List Bool Lia ZifyBool.
From Verif Require Import Imp IncrSeq Producer C01_proof C01_nonidem.
Import ListNotations.
Open Scope Z_scope.

(* Idempotent producer, every accepted event sequence (any interleaving of accepts, drains,
   arrivals, lost/failed replies and retries), as long as the sequence counter does not wrap
   within the run: no gap and no reused sequence at the leader; the log is a prefix of the
   accepted records in acceptance order; nothing is appended twice; acknowledged => in log. *)
Theorem c01_idem_log_partial : forall tr s' vs,
  count_accepts tr < 2147483648 ->
  run init0 tr = Some (s', vs) ->
  Forall (fun v => v = Appended \/ v = Duplicate) vs /\
  (exists rest, accepted s' = log_records s' ++ rest) /\
  (NoDup (accepted s') -> NoDup (log_records s')) /\
  incl (acked s') (log_records s').
Proof.
  intros tr s' vs B H.
  destruct (idem_run_correct init0 tr s' vs inv_init0 B H) as (Hv & Hp & Hn & Ha & _). auto.
Qed.
Print Assumptions c01_idem_log_partial.

(* same from any established sequence state (ls, lc) of the partition *)
Theorem c01_idem_log_at_partial : forall ls lc tr s' vs,
  0 <= ls -> 0 <= lc ->
  (ls + lc) mod 2147483648 + count_accepts tr < 2147483648 ->
  run (init_at ls lc) tr = Some (s', vs) ->
  Forall (fun v => v = Appended \/ v = Duplicate) vs /\
  (exists rest, accepted s' = log_records s' ++ rest) /\
  incl (acked s') (log_records s').
Proof.
  intros ls lc tr s' vs _ _ B H.
  destruct (idem_run_correct (init_at ls lc) tr s' vs (inv_init_at ls lc)) as (Hv & Hp & _ & Ha & _);
    [cbn; lia|exact H|auto].
Qed.
Print Assumptions c01_idem_log_at_partial.

(* at most one batch of a partition in flight: the model refuses a drain while the drained batch is
   neither acknowledged nor re-enqueued *)
Theorem c01_one_in_flight : forall s s' ov, step s Drain = Some (s', ov) ->
  pend s = None \/ exists p, pend s = Some p /\ ploc p = InQueue.
Proof. intros s s' ov H. apply step_Step in H. inversion H; [left; assumption|right; eauto]. Qed.
Print Assumptions c01_one_in_flight.

(* a retried batch keeps its sequence number and its records *)
Theorem c01_retry_keeps_sequence : forall s p s1 s2 o1 o2,
  pend s = Some p -> step s ReplyRetry = Some (s1, o1) -> step s1 Drain = Some (s2, o2) ->
  exists p2, pend s2 = Some p2 /\ pseq p2 = pseq p /\ precs p2 = precs p /\ nseq s2 = nseq s.
Proof.
  intros s p s1 s2 o1 o2 Hp H1 H2. apply step_Step in H1. inversion H1; subst.
  injection H2 as <- _. replace p0 with p by congruence. eexists. repeat split.
Qed.
Print Assumptions c01_retry_keeps_sequence.

(* without idempotence: duplicates only as whole re-sent batches, first occurrences in order *)
Theorem c01_nonidem_dups : forall tr s',
  nrun ninit tr = Some s' ->
  (exists ks, length ks = length (ndr s') /\ nlog s' = stut (ndr s') ks) /\
  (exists rest, naccepted s' = concat (ndr s') ++ rest).
Proof.
  intros tr s' H. destruct (nrun_inv tr ninit s' ninv_init H) as [Hs _ Hr].
  split; [exact Hs|exists (concat (nuq s')); exact Hr].
Qed.
Print Assumptions c01_nonidem_dups.

(* the translated increment agrees with Kafka's rule exactly when it does not wrap *)
Theorem c01_incr_matches_kafka_nowrap : forall s n,
  0 <= s -> 0 <= n -> s + n <= 2147483647 -> incr s n = incr_kafka s n.
Proof. intros. rewrite incr_nowrap by lia. unfold incr_kafka. rewrite Z.mod_small; lia. Qed.
Print Assumptions c01_incr_matches_kafka_nowrap.

Theorem c01_seq_in_range_iff_nowrap : forall s n,
  0 <= s <= 2147483647 -> 0 < n <= 2147483647 ->
  (0 <= incr s n <= 2147483647 <-> s + n <= 2147483647).
Proof. intros s n Hs Hn. rewrite incr_eq. destruct (2147483647 <? s + n) eqn:E; lia. Qed.
Print Assumptions c01_seq_in_range_iff_nowrap.

(* The full statement of the wrap-around clause ... *)
Definition C01_seq_wrap_full : Prop :=
  forall s n, 0 <= s <= 2147483647 -> 0 < n <= 2147483647 ->
              0 <= incr s n <= 2147483647 /\ incr s n = incr_kafka s n.
(* ... is false for the code as it is (the function subtracts 2^32 and goes negative, where
   Kafka wraps to 0).  Pinned by tests/test_transaction_manager.py; recorded as a known
   finding (known_findings.json), replayed on the real code by harness/c01.py. *)
Theorem c01_seq_wrap_refuted : ~ C01_seq_wrap_full.
Proof.
  intros H. destruct (H 2147483647 1 ltac:(split; discriminate) ltac:(split; [reflexivity|discriminate])) as ((Hlo & _) & _).
  destruct incr_wrap_negative as (E & _). rewrite E in Hlo. apply Hlo. reflexivity.
Qed.
Print Assumptions c01_seq_wrap_refuted.

(* non-vacuity: a trace of two batches with a lost reply, a retry and a duplicate is accepted *)
Example c01_trace_accepted :
  exists s' , run init0 [Accept 0 true; Accept 1 false; Drain; Accept 2 true; Arrive; ReplyRetry;
                         Drain; Arrive; ReplyOk; Drain; Arrive; ReplyOk]
              = Some (s', [Appended; Duplicate; Appended]) /\
              log_records s' = [0; 1; 2]%nat /\ acked s' = [0; 1; 2]%nat.
Proof. eexists. vm_compute. repeat split. Qed.

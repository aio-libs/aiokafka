(* C03 — Consumer yields each visible record once, in offset order, from its position.
   Public statements; the lemmas they share are in proof/C03_lists.v, C03_main.v, C03_tpstate.v.
   Model: model/C03_Fetcher.v
     - the log as a consumer may see it: batches (base, last, offsets of the visible records —
       none for control / aborted / emptied batches; exactness of that filter is C08);
     - the per-partition fetcher LTS (Fetcher + TopicPartitionState + FetchResult /
       PartitionRecords, composed with the leader's answers): [step]/[run];
     - the API-level specification automaton [sstep]/[srun], and [astep]/[arun] for what the
       application itself records;
     - the scans of next_record / fetched_records over the buffered partitions.
   Traces recorded from the real AIOKafkaConsumer under the simulator must be accepted by
   [run] and [arun] (correspondence, harness/c03.py). *)
From Coq Require Import ZArith List Bool Lia.
From Verif Require Import DispatchActs FetchDispatch.
From Verif Require Import ListFacts C03_Fetcher C03_lists C03_main.
From Verif Require Import C03_TpState TpStateGen C03_tpstate.
Import ListNotations.
Open Scope Z_scope.

(* c03_exact.  In EVERY accepted trace (any interleaving of fetches, replies in any order,
   stale replies, failed fetches, getone/getmany hand-outs, seeks, resets, pause/resume), every
   run of deliveries between two repositionings — started at a (the seek target or the reset
   result), position e when it ended or now — consists of exactly the visible records of the log
   with offsets in [a, e). *)
Theorem c03_exact : forall L none tr s,
  wf_log L = true -> run none L init tr = Some s ->
  Forall (fun x => let '(a, e, ds) := x in a <= e /\ ds = vis_between L a e) (segments s).
Proof.
  intros L none tr s WF H. destruct (reachable_ok L WF _ _ _ H) as (_ & OK). exact (sclose_ok L _ OK).
Qed.
Print Assumptions c03_exact.

(* ... and such a slice is strictly increasing, free of repetitions and a contiguous block of
   the visible records: nothing visible at or after a and below e is missing *)
Theorem c03_exact_shape : forall L a e,
  wf_log L = true -> a <= e ->
  ssorted a (vis_between L a e) /\ NoDup (vis_between L a e) /\
  visible L = filter (fun r => r <? a) (visible L) ++ vis_between L a e ++
              filter (fun r => e <=? r) (visible L) /\
  (forall r, In r (vis_between L a e) <-> In r (visible L) /\ a <= r < e).
Proof.
  intros L a e WF Hae. pose proof (visible_sorted L WF) as VS.
  assert (ssorted a (vis_between L a e)) as S1.
  { eapply ssorted_weaken; [|apply (between_sorted a e _ 0 VS)]. lia. }
  split; [exact S1|]. split; [eapply ssorted_NoDup; exact S1|].
  split; [apply (between_block _ 0 a e VS Hae)|]. intros r. apply between_In.
Qed.
Print Assumptions c03_exact_shape.

(* Refinement: every accepted trace of the fetcher model, seen through [abs_trace], is a run of
   the specification automaton ending in the abstraction of the state reached. *)
Theorem c03_refines_spec : forall L none tr s,
  wf_log L = true -> run none L init tr = Some s ->
  srun L sinit (abs_trace none L init tr) = Some (abs_st s).
Proof. intros L none tr s WF H. exact (proj2 (run_refines L WF none tr init s I H)). Qed.
Print Assumptions c03_refines_spec.

(* The specification automaton is exact, and so is the application-level automaton against
   which the recorded API calls/returns are replayed. *)
Theorem c03_spec_exact : forall L tr s,
  wf_log L = true -> srun L sinit tr = Some s ->
  Forall (fun x => let '(a, e, ds) := x in a <= e /\ ds = vis_between L a e) (sclose s).
Proof. intros L tr s WF H. exact (sclose_ok L s (srun_ok L WF tr sinit s (sinit_ok L) H)). Qed.
Print Assumptions c03_spec_exact.

Theorem c03_application_trace_exact : forall L tr s,
  wf_log L = true -> arun L sinit tr = Some s ->
  Forall (fun x => let '(a, e, ds) := x in a <= e /\ ds = vis_between L a e) (sclose s).
Proof. intros L tr s WF H. exact (sclose_ok L s (arun_ok L WF tr sinit s (sinit_ok L) H)). Qed.
Print Assumptions c03_application_trace_exact.

(* c03_position.  (1) right after getone() handed out r the position is r + 1; *)
Theorem c03_position_after_getone : forall none L s r s',
  step none L s (HandOne (Some r)) = Some s' -> pos s' = Some (r + 1) /\ paused s = false.
Proof.
  intros none L s r s'. cbn [step]. unfold hand_one. destruct (buf s) as [|rem cur fin|c]; try discriminate.
  destruct (stale s cur) eqn:ES; [discriminate|]. destruct (stale_false _ _ ES) as (Hpa & _).
  destruct rem as [|x rem]; [discriminate|].
  destruct (res_eqb (Some x) (Some r)) eqn:E; [|discriminate]. apply res_eqb_true in E. injection E as ->.
  intros [= <-]. split; [reflexivity|exact Hpa].
Qed.
Print Assumptions c03_position_after_getone.

(* (2) after getmany handed out a non-empty list the position is past its last record; *)
Theorem c03_position_after_getmany : forall L none tr s mx res s',
  wf_log L = true -> run none L init tr = Some s ->
  step none L s (HandMany mx res) = Some s' -> res <> [] ->
  exists p, pos s' = Some p /\ last_or 0 res + 1 <= p.
Proof.
  intros L none tr s mx res s' WF H. exact (hand_many_position L none s mx res s' (proj1 (reachable_ok L WF _ _ _ H))).
Qed.
Print Assumptions c03_position_after_getmany.

(* (3) the position is never beyond a visible record of the current run that was not delivered; *)
Theorem c03_position_not_ahead : forall L none tr s p,
  wf_log L = true -> run none L init tr = Some s -> pos s = Some p ->
  exists a, start s = Some a /\ a <= p /\
    forall r, In r (visible L) -> a <= r < p -> In r (seg s).
Proof.
  intros L none tr s p WF H Hp. destruct (reachable_ok L WF _ _ _ H) as (_ & (_ & OK)).
  destruct (OK p Hp) as (a & Ha & Hle & Hs). exists a. split; [exact Ha|]. split; [exact Hle|].
  intros r I R. cbn in Hs. rewrite Hs. apply between_In. split; assumption.
Qed.
Print Assumptions c03_position_not_ahead.

(* (4) right after seek(o), position() = o. *)
Theorem c03_seek_then_position : forall none L s o s1 p s2,
  step none L s (Seek o) = Some s1 -> step none L s1 (Position p) = Some s2 -> p = o.
Proof. intros none L s o s1 p s2 [= <-]. cbn. destruct (o =? p) eqn:E; [lia|discriminate]. Qed.
Print Assumptions c03_seek_then_position.

(* c03_seek_wins.  seek drops what was buffered; a reply to a fetch for any other offset than the
   current position — in particular the fetch that was in flight when seek(o) was called —
   changes neither the buffer nor the position (nor anything but the in-flight bookkeeping);
   likewise while a reset is pending. *)
Theorem c03_seek_drops_buffer : forall none L s o s1,
  step none L s (Seek o) = Some s1 ->
  pos s1 = Some o /\ buf s1 = NoBuf /\ start s1 = Some o /\ seg s1 = [].
Proof. intros none L s o s1 [= <-]. repeat split. Qed.
Print Assumptions c03_seek_drops_buffer.

Theorem c03_seek_wins : forall none L s o o' code bs s',
  pos s = Some o -> o' <> o -> step none L s (FetchResp o' code bs) = Some s' ->
  pos s' = pos s /\ buf s' = buf s /\ paused s' = paused s /\ start s' = start s /\
  seg s' = seg s /\ hist s' = hist s.
Proof.
  intros none L s o o' code bs s' Hp Hne. cbn [step]. destruct (remove1 o' (inflight s)); [|discriminate].
  rewrite Hp. cbn. replace (o =? o') with false by lia. intros [= <-]. repeat split.
Qed.
Print Assumptions c03_seek_wins.

Theorem c03_reset_pending_wins : forall none L s o' code bs s',
  pos s = None -> step none L s (FetchResp o' code bs) = Some s' ->
  pos s' = None /\ buf s' = buf s /\ seg s' = seg s /\ hist s' = hist s.
Proof.
  intros none L s o' code bs s' Hp. cbn [step]. destruct (remove1 o' (inflight s)); [|discriminate].
  rewrite Hp. intros [= <-]. repeat split.
Qed.
Print Assumptions c03_reset_pending_wins.

(* ... so the seek takes effect for the very next record: whatever happens after Seek o (stale
   replies, failures, new fetches, hand-outs, pauses), as long as no other seek / reset
   completes, what has been delivered since is exactly the visible records in [o, position). *)
Theorem c03_seek_next_records : forall L none tr o tr2 s p,
  wf_log L = true ->
  run none L init (tr ++ Seek o :: tr2) = Some s -> forallb no_reposition tr2 = true ->
  pos s = Some p -> o <= p /\ seg s = vis_between L o p.
Proof.
  intros L none tr o tr2 s p WF H NR Hp. destruct (reachable_ok L WF _ _ _ H) as (_ & (_ & OK)).
  rewrite run_app in H. destruct (run none L init tr) as [s0|]; [|discriminate]. cbn [run step] in H.
  assert (pos s = None \/ start s = Some o) as [J|J].
  { revert H. apply (run_keeps none L _ _ (step_keeps_start none L o)); [right; reflexivity|exact NR]. }
  - congruence.
  - destruct (OK p Hp) as (a & Ha & Hle & Hs). cbn in Ha, Hs. rewrite J in Ha. injection Ha as <-. split; assumption.
Qed.
Print Assumptions c03_seek_next_records.

(* c03_paused_silent.  While paused nothing is handed out (the buffered data is dropped, the
   position does not move), no fetch is issued for the partition, and the specification never
   delivers. *)
Theorem c03_paused_silent_getone : forall none L s res s',
  paused s = true -> step none L s (HandOne res) = Some s' ->
  res = None /\ pos s' = pos s /\ seg s' = seg s /\ buf s' = NoBuf.
Proof.
  intros none L s res s' Hpa. cbn [step]. unfold hand_one, stale. rewrite Hpa.
  destruct (buf s); try discriminate. destruct res; [discriminate|]. intros [= <-]. repeat split.
Qed.
Print Assumptions c03_paused_silent_getone.

Theorem c03_paused_silent_getmany : forall none L s mx res s',
  paused s = true -> step none L s (HandMany mx res) = Some s' ->
  res = [] /\ pos s' = pos s /\ seg s' = seg s /\ buf s' = NoBuf.
Proof.
  intros none L s mx res s' Hpa. cbn [step]. unfold hand_many, stale. rewrite Hpa.
  destruct (buf s); try discriminate. destruct res; [|discriminate]. intros [= <-]. repeat split.
Qed.
Print Assumptions c03_paused_silent_getmany.

Theorem c03_paused_not_fetched : forall none L s o,
  paused s = true -> step none L s (FetchSent o) = None.
Proof.
  intros none L s o Hpa. cbn [step]. destruct (buf s); try reflexivity. rewrite Hpa.
  destruct (opt_eqb (pos s) o); reflexivity.
Qed.
Print Assumptions c03_paused_not_fetched.

Theorem c03_spec_paused_silent : forall L s r, s_paused s = true -> sstep L s (SDeliver r) = None.
Proof. intros L s r H. cbn [sstep]. destruct (s_pos s); [|reflexivity]. rewrite H. reflexivity. Qed.
Print Assumptions c03_spec_paused_silent.

(* c03_filter_arg.  One pass of next_record / fetched_records over the buffered partitions
   touches (hands out from, raises the error of, returns a record of) only partitions inside
   the `partitions` argument. *)
Theorem c03_filter_arg_getone : forall filt order results visits err ret,
  scan_one filt order results = (visits, err, ret) ->
  (forall p r, In (p, r) visits -> in_filter filt p = true) /\
  (forall p, err = Some p -> in_filter filt p = true) /\
  (forall p r, ret = Some (p, r) -> in_filter filt p = true /\ In (p, Some r) visits).
Proof.
  induction order as [|[p e] order IH]; cbn [scan_one]; intros results visits err ret H.
  - injection H as <- <- <-. repeat split; try contradiction; discriminate.
  - destruct (in_filter filt p) eqn:EF; cbn [negb] in H; [|exact (IH _ _ _ _ H)].
    destruct e; [|destruct results as [|[r|] results]].
    + injection H as <- <- <-. repeat split; try contradiction; try discriminate. intros q [= <-]. exact EF.
    + injection H as <- <- <-. repeat split; try contradiction; discriminate.
    + injection H as <- <- <-. repeat split; try discriminate.
      * intros q r0 [[= <- _]|[]]. exact EF.
      * injection H as <- _. exact EF.
      * injection H as <- <-. left. reflexivity.
    + destruct (scan_one filt order results) as [[v e'] r'] eqn:ES. injection H as <- <- <-.
      destruct (IH _ _ _ _ ES) as (A1 & A2 & A3). repeat split.
      * intros q r0 [[= <- _]|I]; [exact EF|exact (A1 _ _ I)].
      * exact A2.
      * apply (A3 _ _ H).
      * right. apply (A3 _ _ H).
Qed.
Print Assumptions c03_filter_arg_getone.

Theorem c03_filter_arg_getmany : forall filt order mx results drained visits err,
  scan_many filt order mx results drained = (visits, err) ->
  (forall p m rs, In (p, m, rs) visits -> in_filter filt p = true) /\
  (forall p, err = Some p -> in_filter filt p = true).
Proof.
  induction order as [|[p e] order IH]; cbn [scan_many]; intros mx results drained visits err H.
  - injection H as <- <-. split; [contradiction|discriminate].
  - destruct (in_filter filt p) eqn:EF; cbn [negb] in H; [|exact (IH _ _ _ _ _ H)].
    destruct e; [|destruct results as [|rs results]].
    + destruct drained; injection H as <- <-; (split; [contradiction|]); [discriminate|].
      intros q [= <-]. exact EF.
    + injection H as <- <-. split; [contradiction|discriminate].
    + match type of H with (if ?c then _ else _) = _ => destruct c end.
      * injection H as <- <-. split; [|discriminate]. intros q m r0 [[= <- _ _]|[]]. exact EF.
      * match type of H with context [scan_many ?a ?b ?c ?d ?e] =>
          destruct (scan_many a b c d e) as [v e'] eqn:ES end.
        injection H as <- <-. destruct (IH _ _ _ _ _ ES) as (A1 & A2). split; [|exact A2].
        intros q m r0 [[= <- _ _]|I]; [exact EF|exact (A1 _ _ _ I)].
Qed.
Print Assumptions c03_filter_arg_getmany.

(* c03_progress (model-level liveness, hence _partial).  A fault-free round at position p —
   fetch at p, the leader answers with k >= 1 batches, the application drains — strictly
   advances the position to the end of the last batch returned whenever a batch at or after p
   exists, also when every returned batch is control / aborted / emptied by compaction; the
   delivered run grows by exactly the visible records passed; the number of batches ahead
   strictly decreases ... *)
Theorem c03_progress_partial : forall L none k s p,
  wf_log L = true ->
  pos s = Some p -> buf s = NoBuf -> paused s = false -> (1 <= k)%nat ->
  (exists b, In b L /\ p <= b_last b) ->
  exists s' p', round none L k s = Some s' /\ pos s' = Some p' /\ p < p' /\ buf s' = NoBuf /\
                paused s' = false /\ seg s' = seg s ++ vis_between L p p' /\ start s' = start s /\
                (exists b, In b L /\ p' = b_next b) /\
                (length (from_off p' L) < length (from_off p L))%nat.
Proof.
  intros L none k s p WF Hp Hb Hpa Hk (b & Ib & Hbl). unfold round. rewrite Hp. simpl. rewrite Hb, Hp, Hpa. simpl.
  rewrite Z.eqb_refl. simpl. rewrite Z.eqb_refl. simpl.
  destruct (from_off p L) as [|b0 F] eqn:EF.
  { assert (I : In b (from_off p L)) by (apply from_off_In; tauto). rewrite EF in I. destruct I. }
  destruct k as [|k]; [lia|]. change (firstn (S k) (b0 :: F)) with (b0 :: firstn k F).
  assert (valid_resp L p (b0 :: firstn k F) = true) as V.
  { unfold valid_resp. rewrite EF. apply (prefix_b_firstn (b0 :: F) (S k)). }
  rewrite V. destruct (unpack_valid L 0 p _ WF V ltac:(discriminate)) as (E1 & E2 & z & Iz & Ez).
  set (u := unpack p (b0 :: firstn k F)) in *. clearbody u.
  unfold drain_result, hand_many, stale. simpl. rewrite Z.eqb_refl. simpl. rewrite zlist_eqb_refl.
  eexists. exists (snd u). split; [reflexivity|]. simpl. rewrite E1. repeat split; auto.
  - exists z. split; assumption.
  - change (S (length F)) with (length (b0 :: F)). rewrite <- EF.
    apply (from_off_shrinks L z); [exact Iz|]. unfold b_next in Ez. lia.
Qed.
Print Assumptions c03_progress_partial.

(* ... so at most (number of batches ahead) rounds reach the end of the log, having delivered
   every visible record at or after p. *)
Theorem c03_progress_reaches_end_partial : forall L none k m s p,
  wf_log L = true -> (1 <= k)%nat ->
  length (from_off p L) = m -> pos s = Some p -> buf s = NoBuf -> paused s = false ->
  exists n s' p', (n <= m)%nat /\ rounds none L k n s = Some s' /\ pos s' = Some p' /\ p <= p' /\
    from_off p' L = [] /\ buf s' = NoBuf /\ start s' = start s /\
    seg s' = seg s ++ filter (fun r => p <=? r) (visible L).
Proof.
  intros L none k m s p WF Hk. revert s p. induction m as [m IH] using lt_wf_ind. intros s p Hm Hp Hb Hpa.
  destruct (from_off p L) as [|b F] eqn:EF.
  - exists O, s, p. rewrite filter_none, app_nil_r.
    + cbn. repeat split; try assumption; lia.
    + intros y I. pose proof (past_all_batches L p WF EF y I). lia.
  - assert (exists b0, In b0 L /\ p <= b_last b0) as EX.
    { exists b. apply from_off_In. rewrite EF. left. reflexivity. }
    destruct (c03_progress_partial L none k s p WF Hp Hb Hpa Hk EX)
      as (s1 & p1 & R & Hp1 & Hlt & Hb1 & Hpa1 & Hs1 & Hst1 & _ & Hme).
    rewrite EF, Hm in Hme.
    destruct (IH _ Hme s1 p1 eq_refl Hp1 Hb1 Hpa1) as (n & s' & p' & Hn & Rn & Hp' & Hle & Hend & Hb' & Hst' & Hs').
    (* [lia] translates every boolean fact of the context before it starts (ZifyBool comes with C03_lists):
       with these left in, the calls below take seconds *)
    clear IH EX Hpa Hpa1.
    exists (S n), s', p'. cbn [rounds]. rewrite R, Hs', Hs1, <- app_assoc.
    repeat split; try assumption; [lia|lia|congruence|]. f_equal. clear - WF Hlt Hle Hend.
    (* past the last batch the upper bound of a slice is immaterial *)
    assert (forall q, q <= p' -> filter (fun r => q <=? r) (visible L) = vis_between L q p') as FV.
    { intros q Hq. apply filter_ext_in. intros r I. pose proof (past_all_batches L p' WF Hend r I). lia. }
    rewrite (FV p ltac:(lia)), (FV p1 Hle). symmetry. apply (vb_split L WF). lia.
Qed.
Print Assumptions c03_progress_reaches_end_partial.

(* The full liveness clause of the property — "once faults cease delivery continues to the end
   of the log" — is about the real scheduler: that the fetch loop does issue the next fetch and
   that the application keeps calling getone/getmany.  In the model this is the assumption that
   rounds happen; it is checked on the real code by the quiet period of every simulated run
   (monitor "delivery stopped before the end of the log"), not proved. *)
Definition C03_progress_full : Prop :=
  forall L none tr s p, wf_log L = true -> run none L init tr = Some s -> pos s = Some p ->
  exists tr' s' p', run none L s tr' = Some s' /\ pos s' = Some p' /\ from_off p' L = [].

(* Non-vacuity: a log with an aborted transaction (offsets 3-4), a marker (5), a batch whose
   last record was compacted away (6-8, record 8 gone) and a trace recorded in the shape the
   simulator produces: reset to 0, fetch, two records by getone, a seek to 7 while the fetch for
   2 is in flight, the stale reply, the new fetch, getmany, the end of the log. *)
Definition ex_log : list batch :=
  [mkB 0 2 [0; 1; 2]; mkB 3 4 []; mkB 5 5 []; mkB 6 8 [6; 7]; mkB 9 10 [9; 10]].

Definition ex_trace : list ev :=
  [ResetTo 0; FetchSent 0; FetchResp 0 0 [mkB 0 2 [0; 1; 2]]; HandOne (Some 0); HandOne (Some 1);
   Position 2; HandMany (Some 1) [2]; HandOne None; FetchSent 3; Seek 7; Position 7;
   FetchResp 3 0 [mkB 3 4 []; mkB 5 5 []]; FetchSent 7; FetchResp 7 0 [mkB 6 8 [6; 7]];
   Pause; HandMany None []; Resume; FetchSent 7; FetchResp 7 0 [mkB 6 8 [6; 7]; mkB 9 10 [9; 10]];
   HandMany (Some 2) [7; 9]; Position 10; HandOne (Some 10); HandOne None; Position 11].

Example c03_ex_wf : wf_log ex_log = true.
Proof. reflexivity. Qed.

Example c03_ex_accepted :
  replay false ex_log ex_trace = inl (Some 11, false, [(0, 3, [0; 1; 2]); (7, 11, [7; 9; 10])]).
Proof. vm_compute. reflexivity. Qed.

Example c03_ex_app_accepted :
  areplay ex_log [ALose; AReset 0; ADeliver 0; ADeliver 1; APosition 2; ADeliver 2; ASeek 7; APosition 7;
                  APause; AResume; ADeliver 7; ADeliver 9; APosition 10; ADeliver 10; APosition 11]
  = inl (Some 11, [(0, 3, [0; 1; 2]); (7, 11, [7; 9; 10])]).
Proof. vm_compute. reflexivity. Qed.

(* the model rejects what the property forbids: a repeated record, a skipped record, a record
   of a paused partition, data from a stale reply *)
Example c03_ex_rejects :
  run false ex_log init [ResetTo 0; FetchSent 0; FetchResp 0 0 [mkB 0 2 [0; 1; 2]]; HandOne (Some 0); HandOne (Some 0)] = None /\
  run false ex_log init [ResetTo 0; FetchSent 0; FetchResp 0 0 [mkB 0 2 [0; 1; 2]]; HandOne (Some 1)] = None /\
  run false ex_log init [ResetTo 0; FetchSent 0; FetchResp 0 0 [mkB 0 2 [0; 1; 2]]; Pause; HandOne (Some 0)] = None /\
  run false ex_log init [ResetTo 0; FetchSent 0; Seek 7; FetchResp 0 0 [mkB 0 2 [0; 1; 2]]; HandOne (Some 0)] = None /\
  arun ex_log sinit [AReset 0; ADeliver 0; ADeliver 2] = None /\
  arun ex_log sinit [AReset 0; ADeliver 0; ASeek 6; ADeliver 7] = None.
Proof. vm_compute. repeat split. Qed.

Example c03_ex_rounds :
  exists s, rounds false ex_log 1 5 (mkSt (Some 1) NoBuf false [] (Some 1) [] []) = Some s /\
            pos s = Some 11 /\ seg s = [1; 2; 6; 7; 9; 10].
Proof. eexists. vm_compute. repeat split. Qed.

(* The per-partition error dispatch of a Fetch response, regenerated from Fetcher._proc_fetch_request on every run
   (translator/dispatch2gallina.py) and validated against the real method for every code -1..100 with and without a
   reset policy. *)

(* for every integer error code: only OFFSET_OUT_OF_RANGE (with a reset policy) makes the consumer give
   up its position - no other error reply can skip or repeat records *)
Theorem c03_only_out_of_range_moves_position : forall c p,
  has AAwaitReset (fetchDispatch c p) = true -> c = OFFSET_OUT_OF_RANGE /\ p = true.
Proof.
  intros c p. unfold fetchDispatch.
  destruct (c =? 0); [discriminate|].
  destruct ((c =? 6) || (c =? 3)); [discriminate|].
  destruct (Z.eqb_spec c 1) as [->|?].
  - destruct p; [intros _; split; reflexivity|discriminate].
  - destruct (c =? 29); discriminate.
Qed.
Print Assumptions c03_only_out_of_range_moves_position.

(* ... and an error is surfaced to the application only for an out-of-range position without a
   reset policy, or for a topic the consumer may not read *)
Theorem c03_errors_surfaced_only_for : forall c p,
  has ASetError (fetchDispatch c p) = true ->
  (c = OFFSET_OUT_OF_RANGE /\ p = false) \/ c = TOPIC_AUTHORIZATION_FAILED.
Proof.
  intros c p. unfold fetchDispatch.
  destruct (c =? 0); [discriminate|].
  destruct ((c =? 6) || (c =? 3)); [discriminate|].
  destruct (Z.eqb_spec c 1) as [->|?].
  - destruct p; [discriminate|intros _; left; split; reflexivity].
  - destruct (Z.eqb_spec c 29) as [->|?]; [intros _; right; reflexivity|discriminate].
Qed.
Print Assumptions c03_errors_surfaced_only_for.

Theorem c03_out_of_range_follows_policy :
  fetchDispatch OFFSET_OUT_OF_RANGE true = [AAwaitReset] /\ fetchDispatch OFFSET_OUT_OF_RANGE false = [ASetError].
Proof. split; reflexivity. Qed.
Print Assumptions c03_out_of_range_follows_policy.

(* leadership errors refresh the metadata and touch nothing else *)
Theorem c03_leader_errors_refresh_metadata : forall c p, In c [3; 6]%Z -> fetchDispatch c p = [AMetadataUpdate].
Proof. intros c p [<-|[<-|[]]]; destruct p; reflexivity. Qed.
Print Assumptions c03_leader_errors_refresh_metadata.

(* every other error code - for every integer - leaves the partition exactly as it was (the fetch is
   simply repeated): nothing is skipped, nothing is raised *)
Theorem c03_other_errors_change_nothing : forall c p,
  ~ In c fetchDispatch_named_codes -> fetchDispatch c p = [].
Proof.
  intros c p Hn. assert (E : forall k, In k fetchDispatch_named_codes -> (c =? k) = false).
  { intros k Hk. apply Z.eqb_neq. intros ->. exact (Hn Hk). }
  unfold fetchDispatch. rewrite !E by (cbn; tauto). reflexivity.
Qed.
Print Assumptions c03_other_errors_change_nothing.

(* TopicPartitionState's position-keeping methods, translated from aiokafka/consumer/subscription_state.py on every
   run (gen/TpStateGen.v: await_reset, consumed_to, reset_to, seek, pause, resume). *)

(* the invariant "AWAITING_RESET <-> no position; CONSUMING <-> a position and no pending reset strategy" holds
   initially and is kept by every translated method *)
Theorem c03_tpstate_invariant :
  tps_inv tps_init /\
  (forall t k t', TpStateGen.await_reset_py t k = Some t' -> tps_inv t') /\
  (forall t o t', TpStateGen.seek_py t o = Some t' -> tps_inv t') /\
  (forall t o t', TpStateGen.reset_to_py t o = Some t' -> tps_inv t') /\
  (forall t o t', tps_inv t -> TpStateGen.consumed_to_py t o = Some t' -> tps_inv t') /\
  (forall t t', tps_inv t -> TpStateGen.pause_py t = Some t' -> tps_inv t') /\
  (forall t t', tps_inv t -> TpStateGen.resume_py t = Some t' -> tps_inv t').
Proof.
  exact (conj tps_init_inv (conj await_reset_inv (conj seek_inv (conj reset_to_inv
        (conj consumed_to_inv (conj pause_inv resume_inv)))))).
Qed.
Print Assumptions c03_tpstate_invariant.

(* the assertions of the source: reset_to() is legal exactly without a position, consumed_to() exactly with one *)
Theorem c03_tpstate_assertions : forall t o, tps_inv t ->
  (TpStateGen.reset_to_py t o <> None <-> t_position t = None) /\
  (TpStateGen.consumed_to_py t o <> None <-> t_position t <> None).
Proof. intros t o I. exact (conj (reset_to_defined t o I) (consumed_to_defined t o I)). Qed.
Print Assumptions c03_tpstate_assertions.

(* whenever the consumer model allows a repositioning / pause event, the translated method it stands for does not
   hit its assertion, and the model's pos / paused components are the method's _position / _paused afterwards *)
Theorem c03_model_moves_position_as_source : forall none L strategy s e s' t r,
  tps_inv t -> tp_rel s t -> step none L s e = Some s' -> tp_method strategy e t = Some r ->
  exists t', r = Some t' /\ tps_inv t' /\ tp_rel s' t'.
Proof.
  intros none L strategy s e s' t r I [Rp Rq] Hs Hm.
  destruct e; try discriminate Hm; injection Hm as <-; cbn [step] in Hs.
  - (* Seek *) injection Hs as <-. eexists. split; [reflexivity|]. split; [exact (seek_inv t o _ eq_refl)|].
    split; [reflexivity|exact Rq].
  - (* SeekReset *) injection Hs as <-. eexists. split; [reflexivity|].
    split; [exact (await_reset_inv t strategy _ eq_refl)|]. split; [reflexivity|exact Rq].
  - (* ResetTo *) destruct (pos s) eqn:Ep; [discriminate|]. injection Hs as <-.
    destruct (TpStateGen.reset_to_py t o) as [t'|] eqn:E; [|apply (reset_to_defined t o I) in E; [contradiction|congruence]].
    exists t'. split; [reflexivity|]. split; [exact (reset_to_inv t o t' E)|].
    unfold TpStateGen.reset_to_py in E. destruct (t_status t =? 0); [|discriminate]. injection E as <-.
    split; [reflexivity|exact Rq].
  - (* Pause *) injection Hs as <-. eexists. split; [reflexivity|]. split; [exact (pause_inv t _ I eq_refl)|].
    split; cbn; [exact Rp|]. destruct (t_paused t); reflexivity.
  - (* Resume *) injection Hs as <-. eexists. split; [reflexivity|]. split; [exact (resume_inv t _ I eq_refl)|].
    split; cbn; [exact Rp|]. destruct (t_paused t); reflexivity.
Qed.
Print Assumptions c03_model_moves_position_as_source.

(* the out-of-range reply with a reset policy is await_reset: the model drops its position there *)
Theorem c03_out_of_range_reply_is_await_reset : forall L s o bs s' t strategy,
  tp_rel s t -> opt_eqb (pos s) o = true -> has_buf (buf s) = false ->
  step false L s (FetchResp o OFFSET_OUT_OF_RANGE bs) = Some s' ->
  exists t', TpStateGen.await_reset_py t strategy = Some t' /\ tps_inv t' /\ tp_rel s' t'.
Proof.
  intros L s o bs s' t strategy [Rp Rq] Ho Hb Hs. cbn in Hs. destruct (remove1 o (inflight s)); [|discriminate].
  rewrite Ho, Hb in Hs. injection Hs as <-.
  eexists. split; [reflexivity|]. split; [exact (await_reset_inv t strategy _ eq_refl)|]. split; [reflexivity|exact Rq].
Qed.
Print Assumptions c03_out_of_range_reply_is_await_reset.

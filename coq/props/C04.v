(* C04 — Committed offsets never pass undelivered records; no loss across crash/rebalance.
   Public statements; the invariant they are read off is in proof/C04_proof.v.  Model: model/Offsets.v (per partition: coordinator's committed
   offset, successive owner incarnations, delivered set).  Per-partition traces of real consumer
   groups under the simulator (members killed / stopped / rebalanced at arbitrary points, commit
   faults, coordinator failover) must be accepted by the model (harness/c04.py). *)
From Coq Require Import List Bool Arith Lia.
From Verif Require Import Offsets C04_proof.
Import ListNotations.

(* every committed offset has only delivered records below it: the committing incarnation
   delivered [start, off) itself, and everything below its start was delivered before *)
Theorem c04_commit_le_delivered : forall tr s i off s',
  run init tr = Some s -> step s (Commit i off) = Some s' ->
  exists x, lookup i (incs s) = Some x /\ i_start x <= off <= i_pos x /\
            forall o, o < off -> In o (delivered s).
Proof.
  intros tr s i off s' H Hs. pose proof (run_inv tr init s inv_init H) as [_ Ii _].
  cbn [step] in Hs. destruct (lookup i (incs s)) as [x|] eqn:El; [|discriminate].
  destruct ((i_start x <=? off) && (off <=? i_pos x)) eqn:Eg; [|discriminate].
  apply andb_true_iff in Eg. destruct Eg as (H1 & H2). apply Nat.leb_le in H1, H2.
  exists x. repeat split; try assumption. intros o Ho. apply (Ii i x El). lia.
Qed.
Print Assumptions c04_commit_le_delivered.

(* at-least-once across crashes and rebalances: whatever the group has committed, everything
   below it was delivered by some incarnation — wherever members were killed or released *)
Theorem c04_at_least_once : forall tr s c o,
  run init tr = Some s -> committed s = Some c -> o < c -> In o (delivered s).
Proof. intros tr s c o H. pose proof (run_inv tr init s inv_init H) as [Ic _ _]. apply Ic. Qed.
Print Assumptions c04_at_least_once.

(* a new owner starts exactly at the committed offset (else at the log start), so a record is
   delivered again only if it lies at or above the committed offset the new owner was given *)
Theorem c04_redelivery_bound : forall s i s',
  step s (Takeover i) = Some s' ->
  exists x, lookup i (incs s') = Some x /\ i_pos x = i_start x /\
            i_start x = match committed s with Some c => c | None => 0 end.
Proof.
  intros s i s'. cbn [step]. destruct (lookup i (incs s)); [discriminate|]. intros H. injection H as <-.
  eexists. cbn [incs]. rewrite lookup_update_eq. repeat split.
Qed.
Print Assumptions c04_redelivery_bound.

Theorem c04_deliver_from_position : forall s i o s',
  step s (Deliver i o) = Some s' ->
  exists x, lookup i (incs s) = Some x /\ i_alive x = true /\ o = i_pos x /\ o < hw s.
Proof.
  intros s i o s'. cbn [step]. destruct (lookup i (incs s)) as [x|]; [|discriminate].
  destruct (i_alive x && Nat.eqb o (i_pos x) && (o <? hw s)) eqn:Eg; [|discriminate]. intros _.
  apply andb_true_iff in Eg. destruct Eg as (Eg & Hlt). apply andb_true_iff in Eg. destruct Eg as (Ha & Heq).
  exists x. repeat split; [exact Ha|apply Nat.eqb_eq; exact Heq|apply Nat.ltb_lt; exact Hlt].
Qed.
Print Assumptions c04_deliver_from_position.

(* non-vacuity: owner 0 delivers 0..2, commits 2, is killed; owner 1 takes over at 2 and
   redelivers 2; a commit beyond the position is rejected *)
Example c04_trace_accepted :
  replay [Append 5; Takeover 0; Deliver 0 0; Deliver 0 1; Commit 0 2; Deliver 0 2; Release 0;
          Takeover 1; Deliver 1 2; Deliver 1 3; Commit 1 4] = 0.
Proof. reflexivity. Qed.
Example c04_commit_ahead_rejected :
  replay [Append 5; Takeover 0; Deliver 0 0; Commit 0 3] = 4.
Proof. reflexivity. Qed.

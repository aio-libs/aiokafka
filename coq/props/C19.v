(* C19 — stop() always terminates and leaves nothing running.
   Public statements, in two parts.  First model/Shutdown.v — the retry loop of the final offset
   commit and the await points of stop() with an environment oracle: termination and time bound
   of that skeleton.  Then model/C19_Tasks.v — a calculus of cancel-and-join steps, over the
   shutdown paths as translated from /repo's source on every run (gen/CloseShapes.v, by
   translator/close2gallina.py): every stop() path runs to its end from every task state and
   leaves no joined task running.  That no timer or connection of the client survives, that later
   API calls fail and that LeaveGroup is sent are runtime facts decided by the simulator monitor
   on the live objects at every explored stopping point (partial, see DESIGN.md). *)
From Coq Require Import List Bool Arith Lia.
From Verif Require Import Shutdown C19_proof C19_Tasks C19_tasks_proof CloseShapes C19_close_proof.
Import ListNotations.

(* while closing, the final commit makes exactly one attempt whatever the coordinator answers *)
Theorem c19_last_commit_one_attempt : forall outs, outs <> [] ->
  fst (commit_loop true outs) = 1 /\ snd (commit_loop true outs) <> CFuel.
Proof.
  intros outs H. destruct outs as [|a rest]; [congruence|]. destruct a; cbn; split; congruence.
Qed.
Print Assumptions c19_last_commit_one_attempt.

(* the loop as it was before the fix (closing ignored) exhausts every all-retriable oracle: the
   hang that the simulator reproduced (corpus/C19/stop_hang_lost_reply.json) *)
Theorem c19_commit_loop_unbounded_if_closing_ignored : forall outs,
  Forall (fun x => x = ARetriable) outs -> snd (commit_loop false outs) = CFuel.
Proof.
  induction outs as [|x outs IH]; intros H; [reflexivity|].
  inversion H as [|? ? -> Houts]; subst. cbn [commit_loop].
  specialize (IH Houts). destruct (commit_loop false outs) as [n r]. exact IH.
Qed.
Print Assumptions c19_commit_loop_unbounded_if_closing_ignored.

(* every path of stop() whose awaits are each bounded by the request timeout T (a pending rejoin
   counts two requests) returns within 4*T, for every oracle *)
Theorem c19_stop_terminates_partial : forall T p, bounded T p = true -> stop_time p <= 4 * T.
Proof.
  intros T [r c l] Hb. unfold bounded in Hb.
  apply andb_true_iff in Hb as ((Hr & Hc)%andb_true_iff & Hl).
  assert (C : match c with Some a => attempts_time true a | None => 0 end <= T).
  { destruct c as [a|]; [apply attempts_time_closing_le; exact Hc|lia]. }
  apply opt_le_spec in Hr, Hl. unfold stop_time, points.
  destruct r, c, l; cbn [app map point_time fold_left Nat.add]; lia.
Qed.
Print Assumptions c19_stop_terminates_partial.

Example c19_path_example :
  stop_time (PathFull (Some 3) (Some [(ARetriable, 2); (AOk, 2)]) (Some 1)) = 6.
Proof. reflexivity. Qed.

(* The task calculus.  [slots] = the background routines with their await points classified by what a
   cancellation delivered there leads to, [consumer_group_stop] etc. = the sequence of joins that stop()
   performs (both in gen/CloseShapes.v). *)

(* the static condition on one join is sufficient: a procedure all of whose steps satisfy it runs to its end
   from every environment of the state space - no CancelledError or task exception escapes, no join hangs *)
Theorem c19_safe_joins_complete : forall slots env prog,
  prog_safe slots prog = true -> env_ok slots env = true -> run slots env prog = Completed.
Proof. exact safe_completes. Qed.
Print Assumptions c19_safe_joins_complete.

(* ... and necessary for a cancel-and-join step: when it fails, some task state inside the state space stops
   the procedure at that step *)
Theorem c19_unsafe_join_has_failing_state : forall slots t g st,
  t < length slots -> step_safe slots (CancelAwait t g st) = false ->
  exists s, state_ok (nth t slots default_slot) s = true /\
            exec_step slots (env_with (length slots) t [s]) (CancelAwait t g st) <> Continue /\
            env_ok slots (env_with (length slots) t [s]) = true.
Proof.
  intros slots t g st Hl Hs. destruct (unsafe_cancel_await_member _ _ _ _ Hl Hs) as (s & Hok & Hex).
  exists s. split; [exact Hok|]. split.
  - unfold exec_step. cbn [step_slot]. rewrite env_with_nth by exact Hl. cbn [exec_members].
    destruct (exec_member _ (CancelAwait t g st) s); congruence.
  - apply env_with_ok. intros _. cbn [forallb]. now rewrite Hok.
Qed.
Print Assumptions c19_unsafe_join_has_failing_state.

(* the code as it is: every stop() path reaches its last step (the client's connections are closed) whatever
   each background task is doing - not started, suspended at any of its await points, finished, failed with a
   broker error - when stop() is called *)
Theorem c19_consumer_group_stop_completes : forall env,
  env_ok CloseShapes.slots env = true -> run CloseShapes.slots env CloseShapes.consumer_group_stop = Completed.
Proof. intros env. apply safe_completes. exact consumer_group_safe. Qed.
Print Assumptions c19_consumer_group_stop_completes.

Theorem c19_consumer_nogroup_stop_completes : forall env,
  env_ok CloseShapes.slots env = true -> run CloseShapes.slots env CloseShapes.consumer_nogroup_stop = Completed.
Proof. intros env. apply safe_completes. exact consumer_nogroup_safe. Qed.
Print Assumptions c19_consumer_nogroup_stop_completes.

Theorem c19_producer_stop_completes : forall env,
  env_ok CloseShapes.slots env = true -> run CloseShapes.slots env CloseShapes.producer_stop = Completed.
Proof. intros env. apply safe_completes. exact producer_safe. Qed.
Print Assumptions c19_producer_stop_completes.

(* the translated procedures join every background task of their client (the statements above are not about
   empty programs) and the state space is inhabited by non-trivial environments.  The numbers are positions
   in [CloseShapes.slots]: 0 heartbeat, 1 commit refresh, 2 coordination, 3 reset committed, 4 fetch,
   5 pending fetches, 6 pending updates, 7 metadata sync, 8 sender. *)
Theorem c19_stop_joins_every_task :
  forallb (fun t => existsb (Nat.eqb t) (joins CloseShapes.consumer_group_stop)) [0; 1; 2; 4; 5; 6; 7] = true /\
  forallb (fun t => existsb (Nat.eqb t) (joins CloseShapes.consumer_nogroup_stop)) [3; 4; 5; 6; 7] = true /\
  forallb (fun t => existsb (Nat.eqb t) (joins CloseShapes.producer_stop)) [7; 8] = true.
Proof. vm_compute. repeat split; reflexivity. Qed.
Print Assumptions c19_stop_joins_every_task.

Example c19_state_space_inhabited :
  env_ok CloseShapes.slots env_example = true /\ env_ok CloseShapes.slots env_example_failed = true.
Proof. vm_compute. split; reflexivity. Qed.

(* full statement: also after an internal error of the client (a routine ended by its "Unexpected error" path) *)
Definition C19_stop_completes_after_internal_error_full : Prop := forall env,
  env_ok CloseShapes.slots_crash env = true ->
  run CloseShapes.slots_crash env CloseShapes.consumer_group_stop = Completed /\
  run CloseShapes.slots_crash env CloseShapes.consumer_nogroup_stop = Completed.

(* refuted for the code as it is: Fetcher.close() joins the fetch routine without a done() guard and absorbs
   only the cancellation, so a fetch routine that has crashed makes stop() raise before the client is closed
   ([Escaped k]: at step k of the procedure) *)
Theorem c19_stop_after_internal_error_refuted :
  env_ok CloseShapes.slots_crash env_fetch_crashed = true /\
  run CloseShapes.slots_crash env_fetch_crashed CloseShapes.consumer_nogroup_stop = Escaped 1 /\
  run CloseShapes.slots_crash env_fetch_crashed CloseShapes.consumer_group_stop = Escaped 4.
Proof. vm_compute. repeat split; reflexivity. Qed.
Print Assumptions c19_stop_after_internal_error_refuted.

(* the shapes repaired in /repo (F34; F9 and F39; F41) are unsafe in the calculus *)
Theorem c19_bare_join_of_unstarted_task_escapes : forall r t g,
  exec_member r (CancelAwait t g SBare) TUnstarted = Escape.
Proof. intros r t g. destruct g; reflexivity. Qed.
Print Assumptions c19_bare_join_of_unstarted_task_escapes.

Theorem c19_bare_join_at_unprotected_await_escapes : forall r t g i fails,
  nth_error (r_points r) i = Some PCancelled ->
  exec_member r (CancelAwait t g SBare) (TParked i fails) = Escape.
Proof. intros r t g i fails H. rewrite (cancel_parked _ _ _ _ _ _ _ H). reflexivity. Qed.
Print Assumptions c19_bare_join_at_unprotected_await_escapes.

Theorem c19_join_of_swallowed_cancellation_hangs : forall r t g st i fails,
  nth_error (r_points r) i = Some PSwallow ->
  exec_member r (CancelAwait t g st) (TParked i fails) = Hang.
Proof. intros r t g st i fails H. rewrite (cancel_parked _ _ _ _ _ _ _ H). destruct st; reflexivity. Qed.
Print Assumptions c19_join_of_swallowed_cancellation_hangs.

(* "leaves nothing running", at the level of the calculus: a procedure that has completed has left no task of a slot
   it joins running - each has ended normally, cancelled, or with its exception (general statement, then the three
   translated procedures; with c19_stop_joins_every_task: every background task of the client) *)
Theorem c19_completed_leaves_joined_tasks_ended : forall slots env prog,
  run slots env prog = Completed ->
  forall stp t, In stp prog -> step_slot stp = Some t ->
    forallb (fun s => ended (task_after (s_routine (nth t slots default_slot)) stp s)) (nth t env []) = true.
Proof. intros slots env prog H. exact (completed_leaves_joined_tasks_ended slots env prog 0 H). Qed.
Print Assumptions c19_completed_leaves_joined_tasks_ended.

Theorem c19_stop_leaves_no_joined_task_running : forall env stp t,
  env_ok CloseShapes.slots env = true -> step_slot stp = Some t ->
  (In stp CloseShapes.consumer_group_stop \/ In stp CloseShapes.consumer_nogroup_stop \/ In stp CloseShapes.producer_stop) ->
  forallb (fun s => ended (task_after (s_routine (nth t CloseShapes.slots default_slot)) stp s)) (nth t env []) = true.
Proof.
  intros env stp t He Ht [H|[H|H]].
  - exact (safe_nothing_running _ _ _ _ _ consumer_group_safe He H Ht).
  - exact (safe_nothing_running _ _ _ _ _ consumer_nogroup_safe He H Ht).
  - exact (safe_nothing_running _ _ _ _ _ producer_safe He H Ht).
Qed.
Print Assumptions c19_stop_leaves_no_joined_task_running.

(* which rewrites of a join are harmless: a more absorbing await style (bare -> try/except CancelledError or suppress ->
   gather(return_exceptions=True)) or an added done() guard keeps a safe join safe *)
Theorem c19_safe_join_monotone : forall slots t g g' st st',
  style_le st st' = true -> (g = true -> g' = true) ->
  step_safe slots (CancelAwait t g st) = true -> step_safe slots (CancelAwait t g' st') = true.
Proof.
  intros slots t g g' st st' Hs Hg H. pose proof (step_safe_slot_lt _ _ _ H eq_refl) as Hl.
  apply cancel_await_safe_iff; [exact Hl|]. intros s Hok.
  pose proof (proj1 (cancel_await_safe_iff _ _ _ _ Hl) H s Hok) as Hc.
  cbn [exec_member] in *. destruct (g' && is_done s) eqn:E'; [reflexivity|].
  assert (E : g && is_done s = false).
  { destruct g; [rewrite (Hg eq_refl) in E'; exact E' | reflexivity]. }
  rewrite E in Hc. eapply await_fin_mono; eauto.
Qed.
Print Assumptions c19_safe_join_monotone.

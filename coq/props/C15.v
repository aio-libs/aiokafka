(* C15 — Sticky assignor keeps assignments that need not move.
   Public statements.  Model: model/C14_Sticky.v (StickyCtl = the executor's control
   skeleton as a checker of its op log; init_current = _init_current_assignments).
   Proofs: proof/C15_sticky.v.  The order in which reassignment candidates are listed under
   identical subscriptions: model/C15_Order.v, proof/C15_order.v (last theorem below).

   The user-data codec (StickyAssignorUserDataV1) is NOT modelled here: previous assignments
   are tied to the real encoding by correspondence only — every run of the check ships the
   claims through StickyPartitionAssignor._metadata / ConsumerProtocolMemberMetadata
   .encode()/.decode() and compares what the real executor parsed
   (current_assignment / previous_assignment after __init__) with [init_current claims]. *)
From Coq Require Import Arith List Bool ZArith.
From Verif Require Import C14_Assignors C14_Sticky C14_lists C14_rr C14_checkers C14_sticky C15_sticky.
From Verif Require Import C15_Order C15_order.
Import ListNotations.

(* what the executor starts from when no partition is claimed twice: the claims, verbatim,
   and no "previous owner" *)
Theorem c15_userdata_consistent_claims : forall claims,
  NoDup (flat_map snd claims) ->
  init_current claims = (claimed_triples claims, []).
Proof.
  intros claims Hn. unfold init_current, claim_table.
  rewrite (claim_table_fresh claims []) by exact Hn. simpl.
  unfold claim_entries, claimed_triples. clear Hn. f_equal.
  - induction claims as [|[[c g] xs] r IH]; simpl; auto.
    rewrite flat_map_app, IH. f_equal.
    induction xs as [|x xs IHx]; simpl; auto. f_equal. exact IHx.
  - induction claims as [|[[c g] xs] r IH]; simpl; auto.
    rewrite flat_map_app, IH, app_nil_r.
    induction xs as [|x xs IHx]; simpl; auto.
    unfold gens_without. simpl. rewrite Z.eqb_refl. simpl. exact IHx.
Qed.
Print Assumptions c15_userdata_consistent_claims.

(* Unchanged membership / subscriptions / partitions, previous assignment valid and KIP-54
   balanced, no conflicting claims: every accepted run of the executor's skeleton has an empty
   op log (no partition unassigned, no Move enabled) and returns the previous assignment —
   the very list it started from. *)
Theorem c15_unchanged_fixpoint : forall ppt ms st0 assigns reassigns obs r,
  ids_nodup ms -> valid ppt ms st0 -> kip54_balanced ms st0 ->
  ctl_run ppt ms [] st0 assigns reassigns obs = Some r ->
  cr_final r = st0 /\ assigns = [] /\ reassigns = [].
Proof. exact ctl_unchanged_fixpoint. Qed.
Print Assumptions c15_unchanged_fixpoint.

(* Full statement of the identical-subscription clauses: no partition moves between two
   members of [keep] (the survivors when members left, the old members when members joined). *)
Definition C15_full : Prop :=
  forall ppt ms prev st0 assigns reassigns obs r keep,
    ids_nodup ms -> identical_subs ms -> NoDup (map snd st0) ->
    pairs_within_one (drop ppt ms st0) keep = true ->
    ctl_run ppt ms prev st0 assigns reassigns obs = Some r ->
    moved_among keep (drop ppt ms st0) (cr_final r) = [].

(* Proved half (members left): what the present members validly hold is within one of each
   other (it is what remains of a within-one assignment) => every accepted run distributes
   the orphaned partitions by Assign steps only; its op log contains no Move, so nothing a
   survivor held goes anywhere else.  (The hypothesis is not C15_full's: within one over all
   present members, not over [keep].)  Gap: the "members joined" half — there Moves are
   necessary, and which partition is moved depends on the visiting order
   (`_populate_sorted_partitions`), which StickyCtl abstracts; see
   c15_plus_needs_visiting_order.  That half is tied to the code by search only. *)
Theorem c15_identical_subs_no_survivor_moves_partial :
  forall ppt ms prev st0 assigns reassigns obs r keep,
    ids_nodup ms -> identical_subs ms -> NoDup (map snd st0) ->
    pairs_within_one (drop ppt ms st0) (map fst ms) = true ->
    ctl_run ppt ms prev st0 assigns reassigns obs = Some r ->
    reassigns = [] /\ incl (drop ppt ms st0) (cr_final r)
    /\ moved_among keep (drop ppt ms st0) (cr_final r) = [].
Proof.
  intros ppt ms prev st0 assigns reassigns obs r keep Hi Hid Hn Hw H.
  destruct (ctl_minus_no_survivor_moves _ _ _ _ _ _ _ _ Hi Hid Hw H) as [E I].
  split; auto. split; auto. eapply ctl_minus_moved_nil; eauto.
Qed.
Print Assumptions c15_identical_subs_no_survivor_moves_partial.

(* The guards of the skeleton alone do not imply the "members joined" clause: the run below
   is accepted although it moves t1-2 from C0 to C1, two old members.  It is the run the real
   executor took before /repo 2a32c57 (regression input corpus/C15/unsubscribed_topic.json:
   t0, 1 partition, nobody subscribes; t1, 5 partitions; C0, C1, C2 subscribe [t1]; C0 held
   t1-2,3,4, C1 held t1-0,1, C2 is new) because the unsubscribed topic defeated
   `_are_subscriptions_identical()` and the generic visiting order was used.  Since that commit
   the code visits the partitions in the stickiness-preserving order: on the corpus chain (C0; C0+C1;
   C0+C1+C2) its third round starts from C0 = t1-0,1,2, C1 = t1-3,4 and moves only t1-2 from C0
   to C2 (c15_plus_regression); the harness checks on every run that this is the real op log. *)
Theorem c15_plus_needs_visiting_order : ~ C15_full.
Proof.
  intros H.
  pose (ppt := [(0, Some 1); (1, Some 5)]).
  pose (ms := [(0, [1]); (1, [1]); (2, [1])]).
  pose (st0 := [(0, (1, 2)); (0, (1, 3)); (0, (1, 4)); (1, (1, 0)); (1, (1, 1))]).
  pose (reassigns := [(((1, 0), 2), (1, 0)); (((1, 2), 1), (1, 2))]).
  destruct (ctl_run ppt ms [] st0 [] reassigns false) as [r|] eqn:E; [|vm_compute in E; discriminate].
  assert (Hm : moved_among [0; 1] (drop ppt ms st0) (cr_final r) = []).
  { apply (H ppt ms [] st0 [] reassigns false r [0; 1]); auto.
    - unfold ids_nodup. simpl. repeat (constructor; [simpl; intuition discriminate|]). constructor.
    - intros m1 s1 m2 s2 t H1 H2 Ht. simpl in H1, H2.
      destruct H1 as [H1|[H1|[H1|[]]]]; destruct H2 as [H2|[H2|[H2|[]]]];
        inversion H1; inversion H2; subst; auto.
    - apply nodup_tp_b_spec. vm_compute. reflexivity. }
  vm_compute in E. inversion E; subst r. vm_compute in Hm. discriminate.
Qed.
Print Assumptions c15_plus_needs_visiting_order.

(* the third round of the code since 2a32c57 on the corpus chain: accepted, nothing moves between C0 and C1 *)
Example c15_plus_regression :
  let ppt := [(0, Some 1); (1, Some 5)] in
  let ms := [(0, [1]); (1, [1]); (2, [1])] in
  let st0 := [(0, (1, 0)); (0, (1, 1)); (0, (1, 2)); (1, (1, 3)); (1, (1, 4))] in
  exists r, ctl_run ppt ms [] st0 [] [(((1, 2), 2), (1, 2))] false = Some r
            /\ moved_among [0; 1] st0 (cr_final r) = [].
Proof. eexists. split; vm_compute; reflexivity. Qed.

(* non-vacuity of c15_unchanged_fixpoint: a valid, balanced previous assignment and the
   accepted (empty) log *)
Example c15_unchanged_hyps_satisfiable :
  let ppt := [(0, Some 2); (1, Some 3)] in
  let ms := [(0, [0; 1]); (1, [1])] in
  let st0 := [(0, (0, 0)); (0, (0, 1)); (0, (1, 0)); (1, (1, 1)); (1, (1, 2))] in
  valid_b ppt ms st0 = true /\ kip54_balanced_b ms st0 = true
  /\ exists r, ctl_run ppt ms [] st0 [] [] false = Some r /\ cr_final r = st0.
Proof. simpl. split; [reflexivity|]. split; [reflexivity|]. eexists. split; vm_compute; reflexivity. Qed.

(* non-vacuity of the partial theorem: two survivors, identical subscriptions, orphaned
   partitions handed out by Assign steps *)
Example c15_minus_hyps_satisfiable :
  let ppt := [(0, Some 4)] in
  let ms := [(0, [0]); (2, [0])] in
  let st0 := [(0, (0, 0)); (2, (0, 3))] in
  pairs_within_one (drop ppt ms st0) (map fst ms) = true
  /\ exists r, ctl_run ppt ms [] st0 [((0, 1), 0); ((0, 2), 2)] [] false = Some r.
Proof. simpl. split; [reflexivity|]. eexists. vm_compute. reflexivity. Qed.

(* Identical subscriptions, members joined: the candidates for reassignment are listed one per turn, always from a
   member that holds the most not-yet-listed partitions ([order_ok], checked on the real executor's
   sorted_partitions in every run).  Along such an order - at every intermediate point of it - every member that
   has already offered a partition is within one of the heaviest member: old members shed in lock-step, so a
   partition they shed goes to a lighter (new) member, not to another old member. *)
Theorem c15_heaviest_first_lockstep : forall counts o1 o2 c x,
  order_ok counts (o1 ++ o2) = true -> In c o1 -> nth_error (run counts o1) c = Some x ->
  maxl (run counts o1) <= S x.
Proof.
  intros counts o1 o2 c x Hok. apply heaviest_first_lockstep. eapply order_ok_prefix; exact Hok.
Qed.
Print Assumptions c15_heaviest_first_lockstep.

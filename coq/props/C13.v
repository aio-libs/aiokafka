(* C13 — Consumption starts at the committed offset, else per auto_offset_reset.
   Public statements; the lemmas they share are in proof/C13_proof.v.
   Model: model/C13_StartPos.v — per partition: position, pending reset strategy, committed-lookup
   waiters, OffsetFetch / ListOffsets requests in flight, the buffered error; environment: the
   group's offset store ([c_committed]) and the leader's answer to ListOffsets ([answer]: log start
   for earliest, last stable offset / high watermark by isolation level for latest).
   Traces recorded from the real consumer (group and group-less) under the simulator must be
   accepted by [run] (correspondence, harness/c13.py). *)
From Coq Require Import ZArith List Bool.
From Verif Require Import C13_StartPos C13_proof.
Import ListNotations.
Open Scope Z_scope.

(* c13_start.  In every accepted trace in which the application does not reposition:
   - the FIRST valid position after assignment is the committed offset if the consumer can see
     one; otherwise it is the leader's answer for the policy's strategy — log start (earliest),
     last stable offset (latest, read_committed) or high watermark (latest, read_uncommitted);
   - every later position (after an out-of-range report) comes from the committed offset or from
     a reset for the policy's strategy, and a reset only happens when there is no committed
     offset or the position was reported out of range;
   - the only errors raised are NoOffsetForPartition (policy none, no committed offset) and
     OffsetOutOfRange (policy none);
   - with policy none no reset is ever started. *)
Theorem c13_start : forall c tr s,
  run c fresh tr = Some s -> forallb (fun e => negb (user_move e)) tr = true ->
  (forall f, first s = Some f ->
     match snd f with
     | OCommitted cc => eff_committed c = Some cc /\ fst f = cc
     | OReset x l h ls => eff_committed c = None /\ policy_strat (c_policy c) = Some x /\
                          fst f = answer (c_iso c) x l h ls
     | OSeek _ => False
     end) /\
  (forall og, origin_ s = Some og ->
     match og with
     | OCommitted cc => eff_committed c = Some cc
     | OReset x _ _ _ => policy_strat (c_policy c) = Some x /\ (eff_committed c = None \/ oor s = true)
     | OSeek _ => False
     end) /\
  (forall k, In k (surfaced s) \/ err s = Some k ->
     match k with
     | NoOffset => c_policy c = PNone /\ eff_committed c = None
     | OutOfRangeErr => c_policy c = PNone
     end) /\
  (c_policy c = PNone -> rst s = None /\ lo s = []) /\
  (forall x, rst s = Some x -> policy_strat (c_policy c) = Some x /\ (eff_committed c = None \/ oor s = true)).
Proof.
  intros c tr s H CL. destruct (run_inv c tr s H CL) as [Irst Ilo _ Ifirst Iorigin Ierr Isurf _ _].
  split; [exact Ifirst|]. split; [exact Iorigin|]. split; [|split; [|exact Irst]].
  - intros k [Ik|Ik]; [exact (Isurf k Ik)|exact (Ierr k Ik)].
  - intros PN. split.
    + destruct (rst s) as [x|] eqn:E; [|reflexivity]. destruct (Irst x eq_refl) as (A & _).
      rewrite PN in A. discriminate.
    + destruct (lo s) as [|x l] eqn:E; [reflexivity|]. destruct (Ilo x (or_introl eq_refl)) as (A & _).
      rewrite PN in A. discriminate.
Qed.
Print Assumptions c13_start.

(* the answer used by a reset: what the isolation level selects *)
Theorem c13_answer_by_isolation : forall l h ls,
  answer RU Earliest l h ls = l /\ answer RC Earliest l h ls = l /\
  answer RU Latest l h ls = h /\ answer RC Latest l h ls = ls.
Proof. intros. repeat split. Qed.
Print Assumptions c13_answer_by_isolation.

(* c13_out_of_range.  A fetch reply reporting the current position out of range: with a reset
   policy the position is invalidated and a reset for the policy's strategy is pending (which
   then applies the leader's answer); with policy none the position stays and OffsetOutOfRange is
   buffered for the application. *)
Theorem c13_out_of_range : forall c s o s',
  pos s = Some o -> step c s (OutOfRange o) = Some s' ->
  match policy_strat (c_policy c) with
  | Some x => pos s' = None /\ rst s' = Some x /\ oor s' = true
  | None => pos s' = Some o /\ err s' = Some OutOfRangeErr /\ rst s' = rst s
  end.
Proof.
  intros c s o s' P. cbn [step]. rewrite P. cbn. rewrite Z.eqb_refl.
  destruct (policy_strat (c_policy c)).
  - intros [= <-]. repeat split.
  - destruct (err s); [discriminate|]. intros [= <-]. repeat split.
Qed.
Print Assumptions c13_out_of_range.

Theorem c13_reset_applies_answer : forall c s x l h ls s',
  step c s (ListOffsetsResp x l h ls) = Some s' ->
  pos s' = Some (answer (c_iso c) x l h ls) /\ rst s' = None /\
  origin_ s' = Some (OReset x l h ls) /\ rst s = Some x /\ In x (lo s).
Proof.
  intros c s x l h ls s'. cbn [step]. destruct (remove_strat x (lo s)) as [los|] eqn:E; [|discriminate].
  destruct (rst s) as [y|]; [|discriminate]. destruct (strat_eqb x y) eqn:ES; [|discriminate].
  apply strat_eqb_eq in ES. subst y. intros [= <-]. repeat split.
  exact (proj1 (remove_strat_incl _ _ _ E)).
Qed.
Print Assumptions c13_reset_applies_answer.

(* c13_seek_precedence.  A seek(o) landing ANYWHERE — before the committed lookup, while it is
   in flight, between its reply and the resumption of the waiting task, while ListOffsets is in
   flight, after an out-of-range report — wins: whatever lookup / reset events complete
   afterwards (no further user repositioning, nothing consumed, o not reported out of range),
   the position is o. *)
Theorem c13_seek_precedence : forall c tr1 o tr2 s,
  run c fresh (tr1 ++ Seek o :: tr2) = Some s -> forallb quiet_ev tr2 = true ->
  pos s = Some o /\ rst s = None /\ origin_ s = Some (OSeek o).
Proof.
  intros c tr1 o tr2 s. rewrite run_app. destruct (run c fresh tr1) as [s0|]; [|discriminate]. cbn [run step].
  intros H Q. revert H. apply (run_keeps c (sought o) _ (step_sought c o)); [repeat split|exact Q].
Qed.
Print Assumptions c13_seek_precedence.

(* ... and so does seek_to_beginning() / seek_to_end(): whatever lookups were in flight when it was
   called (also ListOffsets for the OTHER strategy — their answers are not applied), a position
   established afterwards is the leader's answer for the strategy asked. *)
Theorem c13_seek_to_precedence : forall c tr1 x tr2 s,
  run c fresh (tr1 ++ SeekTo x :: tr2) = Some s -> forallb quiet_ev tr2 = true ->
  forall p, pos s = Some p ->
  exists l h ls, origin_ s = Some (OReset x l h ls) /\ p = answer (c_iso c) x l h ls.
Proof. exact seek_to_precedence. Qed.
Print Assumptions c13_seek_to_precedence.

(* c13_retry.  A failed committed lookup leaves every waiter waiting and the lookup can be (and,
   by the coordinator's refresh loop, is) sent again; a failed ListOffsets leaves the reset
   pending and the request can be sent again; and from an idle state without a position the
   fault-free continuation ends with a valid position or (policy none) the buffered error. *)
Theorem c13_retry_lookup : forall c s s',
  step c s LookupErr = Some s' ->
  nwait s' = nwait s /\ resolved s' = resolved s /\ pos s' = pos s /\ rst s' = rst s /\ looking s' = false /\
  (c_group c = true -> nwait s <> O -> exists s'', step c s' LookupSent = Some s'').
Proof.
  intros c s s'. cbn [step]. destruct (looking s); [|discriminate]. intros [= <-]. repeat split.
  intros G N. cbn. rewrite G. destruct (nwait s); [congruence|]. eexists; reflexivity.
Qed.
Print Assumptions c13_retry_lookup.

Theorem c13_retry_list_offsets : forall c s x s',
  step c s (ListOffsetsErr x) = Some s' ->
  pos s' = pos s /\ rst s' = rst s /\ nwait s' = nwait s /\
  (forall y, pos s = None -> rst s = Some y -> exists s'', step c s' (ListOffsetsSent y) = Some s'').
Proof.
  intros c s x s'. cbn [step]. destruct (remove_strat x (lo s)); [|discriminate]. intros [= <-]. repeat split.
  intros y P R. cbn. rewrite P, R, (proj2 (strat_eqb_eq y y) eq_refl). eexists; reflexivity.
Qed.
Print Assumptions c13_retry_list_offsets.

Theorem c13_fault_free_completion : forall c s l h ls,
  pos s = None /\ nwait s = O /\ resolved s = [] /\ looking s = false /\ lo s = [] /\ err s = None ->
  exists s', run c s (finish c s l h ls) = Some s' /\ (is_some (pos s') = true \/ is_some (err s') = true).
Proof.
  intros c s l h ls (P & N & R & K & LO & E). destruct s as [ps rs nw res lk los er og fi oo su]. simpl in *. subst.
  unfold finish. simpl. destruct rs as [x|].
  - simpl. rewrite (proj2 (strat_eqb_eq x x) eq_refl). simpl. rewrite (proj2 (strat_eqb_eq x x) eq_refl).
    eexists. split; [reflexivity|]. left. reflexivity.
  - unfold eff_committed. destruct c as [pol io grp cm]. simpl.
    destruct grp; simpl.
    + destruct cm as [cc|]; simpl.
      * rewrite !Z.eqb_refl. simpl. rewrite !Z.eqb_refl. simpl.
        eexists. split; [reflexivity|]. left. reflexivity.
      * destruct pol; simpl; eexists; (split; [reflexivity|]); simpl; auto.
    + destruct pol; simpl; eexists; (split; [reflexivity|]); simpl; auto.
Qed.
Print Assumptions c13_fault_free_completion.

(* Non-vacuity: traces in the shape the simulator records. *)
(* group consumer, committed offset 4 inside the log: starts at 4 *)
Example c13_ex_committed :
  replay (mkCfg PLatest RC true (Some 4))
         [Assigned; CommittedReq; LookupSent; LookupErr; LookupSent; LookupOk (Some 4); CommittedResp (Some 4);
          Position 4; Consumed 5]
  = inl (Some 5, false, Some (4, 1), 1, []).
Proof. vm_compute. reflexivity. Qed.

(* committed offset 1 below the log start 2, policy latest, read_committed with an open
   transaction (LSO 6 < HW 10): starts at 1, reported out of range, reset to the LSO *)
Example c13_ex_out_of_range :
  replay (mkCfg PLatest RC true (Some 1))
         [Assigned; CommittedReq; LookupSent; LookupOk (Some 1); CommittedResp (Some 1); OutOfRange 1;
          ListOffsetsSent Latest; ListOffsetsErr Latest; ListOffsetsSent Latest; ListOffsetsResp Latest 2 10 6;
          Position 6]
  = inl (Some 6, false, Some (1, 1), 3, []).
Proof. vm_compute. reflexivity. Qed.

(* group-less consumer, policy none: NoOffsetForPartition is raised; a seek landing while the
   committed lookup is in flight wins *)
Example c13_ex_none_and_seek :
  replay (mkCfg PNone RU false (Some 7))
         [Assigned; CommittedReq; LookupOk None; CommittedResp None; ErrRaised NoOffset;
          CommittedReq; Seek 3; LookupOk None; CommittedResp None; Position 3]
  = inl (Some 3, false, Some (3, 4), 4, [1]).
Proof. vm_compute. reflexivity. Qed.

(* what the model forbids, in the order of the conjuncts: a committed lookup answered "no offset" although the group
   has one (an OffsetFetch v2+ group-level error read as an empty answer), resetting with the wrong strategy, applying
   a reset after a seek, a position off the leader's answer after a reset, the high watermark instead of the last
   stable offset under read_committed, and the answer to a ListOffsets for `earliest` applied to a pending
   seek_to_end().  The first and the last are the two defects this check found in aiokafka (repaired since, see
   known_findings.d/C13.json). *)
Example c13_ex_rejects :
  run (mkCfg PLatest RU true (Some 4)) fresh [Assigned; CommittedReq; LookupSent; LookupOk None] = None /\
  run (mkCfg PLatest RU true None) fresh
      [Assigned; CommittedReq; LookupSent; LookupOk None; CommittedResp None; ListOffsetsSent Earliest] = None /\
  run (mkCfg PEarliest RU false None) fresh
      [Assigned; CommittedReq; LookupOk None; CommittedResp None; ListOffsetsSent Earliest; Seek 5;
       ListOffsetsResp Earliest 0 9 9] = None /\
  run (mkCfg PEarliest RC false None) fresh
      [Assigned; CommittedReq; LookupOk None; CommittedResp None; ListOffsetsSent Earliest;
       ListOffsetsResp Earliest 2 9 6; Position 6] = None /\
  run (mkCfg PLatest RC false None) fresh
      [Assigned; CommittedReq; LookupOk None; CommittedResp None; ListOffsetsSent Latest;
       ListOffsetsResp Latest 2 9 6; Position 9] = None /\
  run (mkCfg PEarliest RU false None) fresh
      [Assigned; CommittedReq; LookupOk None; CommittedResp None; ListOffsetsSent Earliest; SeekTo Latest;
       ListOffsetsResp Earliest 2 12 12] = None.
Proof. vm_compute. repeat split. Qed.

(* what aiokafka does since the repair of the last one is accepted: the stale answer is ignored, the lookup
   for the strategy asked follows *)
Example c13_ex_seek_to_end_during_reset :
  replay (mkCfg PEarliest RU false None)
         [Assigned; CommittedReq; LookupOk None; CommittedResp None; ListOffsetsSent Earliest; SeekTo Latest;
          ListOffsetsIgnored Earliest; ListOffsetsSent Latest; ListOffsetsResp Latest 2 12 12; Position 12]
  = inl (Some 12, false, Some (12, 3), 3, []).
Proof. vm_compute. reflexivity. Qed.

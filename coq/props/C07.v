(* C07 — Transactions are atomic and follow the transactional protocol order.
   Public statements only.  Model: model/C07_Txn.v — producer instances (TransactionManager state
   through the TRANSLATED transition table, pending / registered partitions, pending offsets, the
   sender's single transactional task with its priority, muting, flush_for_commit, batches) composed
   with the environment (transaction coordinator, partition logs with markers, the group's
   transactional offsets as the log of the pseudo partition GROUPP) and the read-committed reader.
   [run s tr = Some s']: the model accepts the event trace tr.  Traces recorded from the real
   producer under the simulator (faults, coordinator moves, kills, replacement instances) are
   replayed by [replay] inside Coq on every run and must be accepted with equal logs, coordinator
   state, read-committed views and outcomes (harness/c07.py).
   [run_ob]: accepted AND every event satisfies the client obligations [ob]
     1 add_before_produce  2 end_after_acks (no failed batch at commit)
     3 no_write_outside_txn  4 end_reaches_coordinator. *)
From Coq Require Import ZArith List Bool Arith Lia.
From Verif Require Import Imp TxnTable C16_TxnApi C07_Txn C07_client C07_env C07_atomic C07_misc C07_order.
From Verif Require DispatchActs TxnInitPidDispatch TxnAddPartitionsDispatch TxnAddOffsetsDispatch
  TxnOffsetCommitDispatch TxnEndDispatch C16_dispatch.
Import ListNotations.
Local Open Scope nat_scope.

(* ===== atomicity, for every environment behaviour of the coordinator model and every fault
   sequence, IF the client obligations hold ===================================================== *)
Theorem c07_atomic : forall n tr s, run_ob (g0 n) tr = Some s ->
  (* (a) what a read-committed reader sees of any partition (the group's offsets included) was
         written by a transaction whose commit returned, or whose EndTxn(commit) was applied by the
         coordinator (outcome still unknown to the application) *)
  (forall i k x p, In ((i, k), x) (rc_view_t (log_of p (glog (genv s)))) -> commit_known s i k) /\
  (* (b) nothing of a transaction whose abort returned is visible *)
  (forall i k acc, In ((i, k), OAborted, acc) (ended s) ->
     forall x p, ~ In ((i, k), x) (rc_view_t (log_of p (glog (genv s))))) /\
  (* (c) nothing of a transaction for which no EndTxn(commit) was applied is visible — open, failed,
         fenced and killed ones included *)
  (forall i c, cl s i = Some c -> csent c = false -> ~ ended_committed s (i, kcur c) ->
     forall x p, ~ In ((i, kcur c), x) (rc_view_t (log_of p (glog (genv s))))) /\
  (* (d) every record and every offset commit of a transaction whose commit returned is visible, or
         becomes visible with the commit markers the coordinator is writing *)
  (forall i k acc, In ((i, k), OCommitted, acc) (ended s) ->
     forall x p, In (x, p) acc -> vop s (i, k) x p) /\
  (* (e) all or nothing while in doubt: once EndTxn(commit) was applied, everything accepted *)
  (forall i c, cl s i = Some c -> csent c = true ->
     forall x p, In (x, p) (accepted c) -> vop s (i, kcur c) x p).
Proof.
  intros n tr s H. pose proof (run_ob_hinv _ _ _ H) as L.
  assert (A : forall i k x p, In ((i, k), x) (rc_view_t (log_of p (glog (genv s)))) -> commit_known s i k).
  { intros i k x p V. apply (l_6 _ L). eapply (l_E3 _ L); eauto. }
  split; [exact A|]. split; [|split; [|split; [exact (l_14 _ L) | exact (l_1 _ L)]]].
  - intros i k acc Ab x p V. destruct (l_7 _ L _ _ _ Ab) as (B & C).
    destruct (A _ _ _ _ V) as [(c & K1 & K2 & K3)|K]; [|auto]. rewrite (C c K1 K2) in K3. discriminate.
  - intros i c Hc Cs Ne x p V.
    destruct (A _ _ _ _ V) as [(c0 & K1 & K2 & K3)|K]; [|auto]. rewrite Hc in K1. inversion K1; subst c0. congruence.
Qed.
Print Assumptions c07_atomic.

(* "pending" in (d)/(e) means: the coordinator's marker write is the only thing missing *)
Theorem c07_pending_becomes_visible : forall s tg x p s',
  vop s tg x p -> step s EMarkers = Some s' -> In (tg, x) (rc_view_t (log_of p (glog (genv s')))).
Proof.
  intros s tg x p s' V H. unfold step in H. destruct (est (genv s)) as [| |c0|] eqn:Es; try discriminate.
  injection H as <-. exact (vop_markers s tg x p c0 Es V).
Qed.
Print Assumptions c07_pending_becomes_visible.

(* ===== client obligations that hold on EVERY accepted trace ====================================== *)
(* EndTxn is sent only when no batch of the transaction is queued, pending or in flight, no
   partition and no offset entry is waiting; and unless a batch failed, everything the transaction
   accepted has been appended by the brokers by then *)
Theorem c07_end_after_acks : forall n tr s i commit v s',
  run (g0 n) tr = Some s -> step s (REndTxn i commit v) = Some s' ->
  exists c, get s i = Some c /\ queue c = [] /\ inflight c = [] /\ pend_parts c = [] /\ pend_offs c = [] /\
            (lostb c = false -> incl (accepted c) (capp c)).
Proof.
  intros n tr s i commit v s' H S. eapply endtxn_after_acks; eauto. eapply run_gcinv; eauto.
Qed.
Print Assumptions c07_end_after_acks.

(* a batch that a leader appends belongs to the application transaction that is open in its
   producer (state neither READY nor UNINITIALIZED, same transaction index) and carries records
   accepted in that transaction *)
Theorem c07_no_write_outside_txn : forall n tr s i b s',
  run (g0 n) tr = Some s -> step s (RProduce i b VApplied) = Some s' ->
  exists c x, nth_error (clients s) i = Some c /\ bid x = b /\ In x (bq c) /\
              btag x = kcur c /\ cst c <> READY /\ cst c <> UNINIT /\
              (forall y, In y (bitems x) -> In (y, bpart x) (accepted c)) /\
              glog (genv s') = glog (genv s) ++ [(bpart x, Data (cep c) (i, kcur c) (bitems x))].
Proof.
  intros n tr s i b s' H S. eapply produce_in_txn; eauto. eapply run_gcinv; eauto.
Qed.
Print Assumptions c07_no_write_outside_txn.

(* add_before_produce, at full strength: on EVERY accepted trace, whenever a leader appends a
   transactional batch — or the group coordinator applies a transactional offset commit — the
   transaction coordinator is in Ongoing and has that partition (that group) registered; i.e.
   obligation 1 of [ob] is never broken.  (Proof: muting + the priority rule + the repaired
   error_transaction keep "registered at the client => registered at the coordinator" for the one
   instance that holds the coordinator's epoch; proof/C07_order.v.) *)
Theorem c07_add_before_produce : forall n tr s e s',
  run (g0 n) tr = Some s -> step s e = Some s' -> ob s e <> Some 1.
Proof. exact add_before_produce. Qed.
Print Assumptions c07_add_before_produce.

(* spelled out for a Produce request *)
Corollary c07_add_before_produce_batch : forall n tr s i b s',
  run (g0 n) tr = Some s -> step s (RProduce i b VApplied) = Some s' ->
  exists c x r, nth_error (clients s) i = Some c /\
    take_bid b (inflight c ++ match cst c with FATAL => deadb c | _ => [] end) = Some (x, r) /\
    est (genv s) = EOngoing /\ In (bpart x) (eparts (genv s)).
Proof.
  intros n tr s i b s' R S. pose proof (add_before_produce n tr s _ s' R S) as O.
  unfold step in S. unfold ob in O.
  destruct (nth_error (clients s) i) as [c|]; [|discriminate].
  destruct (take_bid b _) as [[x r]|] eqn:T; [|discriminate].
  exists c, x, r. split; [reflexivity|]. split; [exact T|].
  destruct (is_ongoing (genv s) && memn (bpart x) (eparts (genv s))) eqn:G; [|exfalso; apply O; reflexivity].
  apply andb_prop in G. destruct G as (G1 & G2). split; [apply is_ongoing_true; exact G1 | apply memn_In; exact G2].
Qed.
Print Assumptions c07_add_before_produce_batch.

(* client side of add_before_produce: a batch is handed to a Produce request only for a partition
   that is not waiting for AddPartitionsToTxn (muting) and whose AddPartitionsToTxn was acknowledged
   in this transaction (it is in _txn_partitions) — fatal_error, after which the sender is gone,
   being the only thing that clears the sets *)
Theorem c07_drain_only_registered : forall n tr s i b s',
  run (g0 n) tr = Some s -> step s (SDrain i b) = Some s' ->
  exists c x, get s i = Some c /\ In x (queue c) /\ bid x = b /\
              ~ In (bpart x) (pend_parts c) /\ (cerr c = false -> In (bpart x) (txn_parts c)).
Proof.
  intros n tr s i b s' H S. eapply drain_registered; eauto. eapply run_gcinv; eauto.
Qed.
Print Assumptions c07_drain_only_registered.

(* ===== the one obligation the code as it is does NOT guarantee ==================================== *)
(* "the client never breaks an obligation": *)
Definition C07_client_obligations_full : Prop :=
  forall n tr s, run (g0 n) tr = Some s -> first_ob (g0 n) tr 0 = None.
(* "every record of a transaction whose commit returned is visible" on every accepted trace (no
   hypothesis on the client): *)
Definition C07_committed_complete_full : Prop :=
  forall n tr s, run (g0 n) tr = Some s -> est (genv s) <> EPrep true ->
  forall i k acc, In ((i, k), OCommitted, acc) (ended s) ->
  forall x p, In (x, p) acc -> In ((i, k), x) (rc_view_t (log_of p (glog (genv s)))).

(* Both are false of the faithful model.  The witness is a trace of the REAL producer (re-recorded on
   the real code by harness/c07.py on every run; known_findings.d/C07.json): a batch fails
   non-retriably in the Produce response, flush_for_commit() is satisfied by the failed future,
   EndTxn(COMMIT) is sent and commit_transaction() returns — obligation 2 (end_after_acks: "no batch
   of the transaction failed") is broken at event 12 and the committed transaction lacks record 1. *)
Theorem c07_client_obligations_refuted :
  ~ C07_client_obligations_full /\
  first_ob (g0 1) w_commit_without_batch 0 = Some (12, 2).
Proof.
  destruct witness_commit_without_batch as (s & R & _ & _ & _ & F).
  split; [|exact F]. intros H. specialize (H 1 _ s R). rewrite F in H. discriminate.
Qed.
Print Assumptions c07_client_obligations_refuted.

Theorem c07_committed_complete_refuted :
  ~ C07_committed_complete_full /\
  exists s, run (g0 1) w_commit_without_batch = Some s /\
            ended s = [((0, 1), OCommitted, [(1, 0)])] /\
            rc_view_t (log_of 0 (glog (genv s))) = [].
Proof.
  destruct witness_commit_without_batch as (s & R & E & V & D & _).
  split; [|exists s; auto].
  intros H.
  assert (P : est (genv s) <> EPrep true) by (rewrite D; discriminate).
  specialize (H 1 _ s R P 0 1 [(1, 0)]). rewrite E in H.
  specialize (H (or_introl eq_refl) 1 0 (or_introl eq_refl)). rewrite V in H. destruct H.
Qed.
Print Assumptions c07_committed_complete_refuted.

(* The paths repaired in the code (an abortable error keeps what is registered, abort ends it at the
   coordinator, the waiting batch is failed instead of produced): the real producer's traces of
   these scenarios satisfy every obligation, the aborted record stays invisible. *)
Example c07_repaired_traces :
  (exists s, run_ob (g0 1) t_abort_after_abortable_error = Some s /\
             ended_tags s = [((0, 1), OAborted); ((0, 2), OCommitted)] /\
             rc_view_t (log_of 0 (glog (genv s))) = [((0, 2), 2)]) /\
  (exists s, run_ob (g0 1) t_unauthorized_partition = Some s /\
             ended_tags s = [((0, 1), OAborted)] /\ glog (genv s) = []).
Proof. split; eexists; (split; [vm_compute; reflexivity|]); repeat split. Qed.

(* ===== fencing ==================================================================================== *)
(* a new instance's InitProducerId bumps the epoch; from then on no request of an instance that
   holds an older epoch is ever applied by the coordinator, the group coordinator or a leader *)
Theorem c07_fenced_writes_rejected :
  (forall s s', einit (genv s) = true -> step s EInitOk = Some s' -> eep (genv s') = S (eep (genv s))) /\
  (forall tr s s' i ep, run s tr = Some s' -> started_with s i ep -> ep < eep (genv s) ->
     Forall (fun e => applied_by e <> Some i) tr).
Proof.
  split.
  - intros s s' I H. unfold step in H.
    destruct (est (genv s)); try discriminate; injection H as <-; simpl; rewrite I; reflexivity.
  - induction tr as [|e tr IH]; intros s s' i ep H St Lt; [constructor|].
    simpl in H. destruct (step s e) as [s1|] eqn:S; [|discriminate].
    destruct (step_epochs _ _ _ S) as (M & K). constructor.
    + intros A. destruct (applied_needs_epoch _ _ _ _ S A) as (c & C1 & C2).
      destruct St as (c0 & D1 & D2 & D3). rewrite C1 in D1. inversion D1; subst c0. lia.
    + eapply (IH s1 s' i ep); eauto. lia.
Qed.
Print Assumptions c07_fenced_writes_rejected.

(* ===== ending under retriable faults (model-level variant) ======================================== *)
(* Full statement: with only retriable faults followed by quiet, every transaction ends the way the
   application requested.  It needs fairness of the event loop and of the environment ("after the
   faults cease each request is eventually applied and answered"), which the trace model does not
   express; the harness checks it on every simulated run with retriable faults only. *)
Definition C07_retriable_eventually_ends_full : Prop :=
  forall n tr s i c, run (g0 n) tr = Some s -> get s i = Some c ->
  cst c = COMMITTING \/ cst c = ABORTING -> cep c = eep (genv s) ->
  exists tr' s' c', run s tr' = Some s' /\ nth_error (clients s') i = Some c' /\ cst c' = READY.

(* Proved: [mu] (partitions and offsets still to register / commit, batches still to acknowledge)
   strictly decreases with every acknowledgement the client receives, a refused or lost request
   (coordinator moved, loading, CONCURRENT_TRANSACTIONS, connection lost, timeout) changes nothing
   but the slot — the same request is picked again —, at measure zero the sender picks EndTxn, and
   its acknowledgement completes the transaction with the requested outcome. *)
Theorem c07_retriable_eventually_ends_partial :
  (forall s i p s' c, step s (CPartAdded i p) = Some s' -> get s i = Some c ->
     exists c', nth_error (clients s') i = Some c' /\ mu c' < mu c) /\
  (forall s i s' c, step s (CGroupAdded i) = Some s' -> get s i = Some c -> grp c = false -> pend_offs c <> [] ->
     exists c', nth_error (clients s') i = Some c' /\ mu c' < mu c) /\
  (forall s i x s' c, step s (COffCommitted i x) = Some s' -> get s i = Some c ->
     exists c', nth_error (clients s') i = Some c' /\ mu c' < mu c) /\
  (forall s i b s' c, step s (SOk i b) = Some s' -> get s i = Some c -> cst c <> FATAL ->
     exists c', nth_error (clients s') i = Some c' /\ mu c' < mu c) /\
  (forall s e s' i c, step s e = Some s' -> get s i = Some c ->
     (exists ps, e = RAddParts i ps VNot) \/ e = RAddOffs i VNot \/ (exists it, e = RToc i it VNot) \/
     (exists cm, e = REndTxn i cm VNot) \/ e = TDone i ->
     exists c', nth_error (clients s') i = Some c' /\ mu c' = mu c /\ cst c' = cst c /\ next_kind c' = next_kind c) /\
  (forall c, cst c = COMMITTING \/ cst c = ABORTING -> pend_parts c = [] -> pend_offs c = [] ->
     next_kind c = Some KEnd) /\
  (forall s i c, get s i = Some c -> cst c = COMMITTING \/ cst c = ABORTING ->
     pend_parts c = [] -> pend_offs c = [] -> queue c = [] -> inflight c = [] ->
     slot c = Some (KEnd, SApplied) ->
     exists s' c', step s (AComplete i) = Some s' /\ nth_error (clients s') i = Some c' /\ cst c' = READY /\
       ended s' = ended s ++ [(tagof i c, match cst c with COMMITTING => OCommitted | _ => OAborted end, accepted c)]).
Proof.
  repeat split.
  - exact mu_part_added.
  - exact mu_group_added.
  - exact mu_off_committed.
  - exact mu_ok.
  - exact mu_not_applied.
  - exact mu_zero_picks_end.
  - exact end_acknowledged_completes.
Qed.
Print Assumptions c07_retriable_eventually_ends_partial.

(* the retriable coordinator conditions of the property's quantifier (coordinator moved or not available,
   COORDINATOR_LOAD_IN_PROGRESS, CONCURRENT_TRANSACTIONS, unknown topic, request timed out) are retried
   after a backoff by every transactional handler - never fatal, never abortable - and a moved coordinator
   is rediscovered.  The chains are regenerated from sender.py on every run (gen/Txn*Dispatch.v). *)
Theorem c07_source_retriable_are_retried :
  (forall c, In c C16_dispatch.retriable_coord ->
     C16_dispatch.tclass_eqb (C16_dispatch.classify (TxnInitPidDispatch.txnInitPidDispatch c)) C16_dispatch.TRetry = true) /\
  (forall c b, In c C16_dispatch.retriable_add_partitions ->
     C16_dispatch.tclass_eqb (C16_dispatch.classify (TxnAddPartitionsDispatch.txnAddPartitionsDispatch c b)) C16_dispatch.TRetry = true) /\
  (forall c, In c C16_dispatch.retriable_coord ->
     C16_dispatch.tclass_eqb (C16_dispatch.classify (TxnAddOffsetsDispatch.txnAddOffsetsDispatch c)) C16_dispatch.TRetry = true) /\
  (forall c, In c C16_dispatch.retriable_offset_commit ->
     C16_dispatch.tclass_eqb (C16_dispatch.classify (TxnOffsetCommitDispatch.txnOffsetCommitDispatch c)) C16_dispatch.TRetry = true) /\
  (forall c, In c C16_dispatch.retriable_coord ->
     C16_dispatch.tclass_eqb (C16_dispatch.classify (TxnEndDispatch.txnEndDispatch c)) C16_dispatch.TRetry = true).
Proof.
  (* [forall c, In c l -> f c = true] is read backwards as [forallb f l = true], a closed term *)
  repeat split; try (apply forallb_forall; vm_compute; reflexivity).
  intros c b. destruct b; revert c; apply forallb_forall; vm_compute; reflexivity.
Qed.
Print Assumptions c07_source_retriable_are_retried.

Theorem c07_source_moved_coordinator_is_rediscovered : forall c, In c [15; 16]%Z ->
  DispatchActs.has DispatchActs.ACoordinatorDead (TxnInitPidDispatch.txnInitPidDispatch c) = true /\
  (forall b, DispatchActs.has DispatchActs.ACoordinatorDead (TxnAddPartitionsDispatch.txnAddPartitionsDispatch c b) = true) /\
  DispatchActs.has DispatchActs.ACoordinatorDead (TxnAddOffsetsDispatch.txnAddOffsetsDispatch c) = true /\
  DispatchActs.has DispatchActs.ACoordinatorDead (TxnOffsetCommitDispatch.txnOffsetCommitDispatch c) = true /\
  DispatchActs.has DispatchActs.ACoordinatorDead (TxnEndDispatch.txnEndDispatch c) = true.
Proof.
  intros c Hc. simpl in Hc. destruct Hc as [<-|[<-|[]]]; repeat split; try (intros []); vm_compute; reflexivity.
Qed.
Print Assumptions c07_source_moved_coordinator_is_rediscovered.

(* ===== non-vacuity: a healthy run satisfies the obligations ====================================== *)
(* begin; send(p0); send_offsets; commit — with a lost AddPartitionsToTxn reply and a retried batch *)
Example c07_healthy_run :
  exists s, run_ob (g0 1)
    [EInitOk; AStart 0 0; ABegin 0; AAccept 0 1 0 0 true; TPick 0 (Some KParts); AOffsets 0 [7];
     RAddParts 0 [0] VNot; TDone 0; TPick 0 (Some KParts); RAddParts 0 [0] VApplied; CPartAdded 0 0; TDone 0;
     TPick 0 (Some KOffs); SDrain 0 0; RAddOffs 0 VApplied; CGroupAdded 0; TDone 0; RProduce 0 0 VApplied;
     SRetry 0 0; SDrain 0 0; RProduce 0 0 VNot; SOk 0 0; TPick 0 (Some KToc); RToc 0 [7] VApplied;
     COffCommitted 0 7; TDone 0; ACommitting 0; TPick 0 (Some KEnd); REndTxn 0 true VApplied; AComplete 0;
     TDone 0; EMarkers] = Some s /\
    rc_view (log_of 0 (glog (genv s))) = [1] /\ rc_view (log_of GROUPP (glog (genv s))) = [7] /\
    ended_tags s = [((0, 1), OCommitted)].
Proof. eexists. split; [vm_compute; reflexivity|]. repeat split. Qed.

(* C08 — Isolation filter: no aborted, no unstable, no control records delivered.
   Public statements.  Model: model/C08_Log.v (logs built from the interleaved operations of
   any number of producers, the broker's answer to a fetch, `unpack` = the Gallina version of
   PartitionRecords._unpack_records); `_consume_aborted_up_to` inside `unpack` is
   gen/ConsumeAborted.v, regenerated from aiokafka/consumer/fetcher.py on every run.
   Proofs: proof/C08_consume.v, C08_wf.v, C08_unpack.v, C08_main.v. *)
From Coq Require Import ZArith List Bool Lia.
From Verif Require Import Imp ConsumeAborted C08_Log C08_consume C08_wf C08_unpack C08_main.
Import ListNotations.
Open Scope Z_scope.

(* The translated _consume_aborted_up_to, for every queue and every offset: pops exactly the
   maximal prefix of entries with first_offset <= batch_offset, adds their producers, never
   raises, never runs out of fuel. *)
Theorem c08_consume_aborted_spec : forall o q,
  ConsumeAborted.post o q = (q_drop o q, q_take o q) /\ ConsumeAborted.py o q = Ok tt.
Proof. exact consume_spec. Qed.
Print Assumptions c08_consume_aborted_spec.

(* read_committed is exact.  For every log built from any interleaving of producers'
   transactions, every fetch offset f, every cut k of the log below the last stable offset, and
   every aborted-transaction index the broker may send (any order): the iterator does not
   raise and delivers exactly the records r of the answer with r.offset >= f that sit in a
   data batch that is non-transactional or whose transaction committed — in log order, each
   once — and all of them are below the LSO. *)
Theorem c08_rc_exact : forall ops f k idx,
  forallb valid_op ops = true ->
  let s := build ops in
  let resp := response s (lso s) f k in
  index_ok s f resp idx ->
  let x := unpack RC f idx resp in
  raised x = false /\
  delivered x = view_of s RC f (lso s) resp /\
  (forall r, In r (delivered x) <->
     exists b, In b resp /\ b_ctl b = false /\ (b_txn b = false \/ committed s b = true) /\
               In r (b_recs b) /\ f <= r_off r) /\
  (forall r, In r (delivered x) -> r_off r < lso s).
Proof.
  intros ops f k idx V. cbv zeta. intros Hidx.
  destruct (fetch_spec _ (build_inv ops V) RC f k idx Hidx) as (R & D & M & B).
  split; [exact R|]. split; [exact D|]. split; [|exact B].
  intros r. rewrite (M r). setoid_rewrite deliverable_rc. setoid_rewrite and_assoc. reflexivity.
Qed.
Print Assumptions c08_rc_exact.

(* read_uncommitted is exact: every data record >= f of the answer (below the high
   watermark), nothing else; whatever index is passed *)
Theorem c08_ru_exact : forall ops f k idx,
  forallb valid_op ops = true ->
  let s := build ops in
  let resp := response s (hw s) f k in
  let x := unpack RU f idx resp in
  raised x = false /\
  delivered x = view_of s RU f (hw s) resp /\
  (forall r, In r (delivered x) <->
     exists b, In b resp /\ b_ctl b = false /\ In r (b_recs b) /\ f <= r_off r) /\
  (forall r, In r (delivered x) -> r_off r < hw s).
Proof.
  intros ops f k idx V. cbv zeta.
  destruct (fetch_spec _ (build_inv ops V) RU f k idx I) as (R & D & M & B).
  split; [exact R|]. split; [exact D|]. split; [|exact B].
  intros r. rewrite (M r). setoid_rewrite deliverable_ru. reflexivity.
Qed.
Print Assumptions c08_ru_exact.

(* No marker is ever delivered — for ANY list of batches (well-formed or not), any index, both
   levels: every delivered record was read out of a batch that is not a control batch. *)
Theorem c08_no_markers : forall i f idx bs r,
  In r (delivered (unpack i f idx bs)) ->
  exists b, In b bs /\ b_ctl b = false /\ In r (b_recs b).
Proof. intros i f idx bs r. apply loop_no_markers. Qed.
Print Assumptions c08_no_markers.

(* ... and on a well-formed log nothing is delivered at the offset of a marker *)
Theorem c08_no_marker_offsets : forall ops i f k idx r c,
  forallb valid_op ops = true ->
  let s := build ops in
  In r (delivered (unpack i f idx (response s (bound s i) f k))) ->
  In c (batches s) -> b_ctl c = true -> r_off r <> b_base c.
Proof. intros ops i f k idx r c V. exact (no_marker_offsets _ (build_inv ops V) i f k idx r c). Qed.
Print Assumptions c08_no_marker_offsets.

(* The position after exhausting ANY non-empty list of batches is the end of its last batch,
   whatever was filtered (control batches, aborted batches, batches emptied by compaction,
   records below the fetch offset).  The hypothesis "did not raise" always holds
   ([unpack_never_raises]) and is not used. *)
Theorem c08_position_is_end_of_last_batch : forall i f idx bs,
  bs <> [] -> raised (unpack i f idx bs) = false ->
  position (unpack i f idx bs) = b_next (last bs dummy_batch).
Proof.
  intros i f idx bs N _. unfold unpack. rewrite loop_position.
  destruct bs; [congruence|reflexivity].
Qed.
Print Assumptions c08_position_is_end_of_last_batch.

(* On a well-formed log: a non-empty answer moves the position to the end of its last batch,
   strictly past the fetch offset and past every batch of the answer; and an answer with room
   for one batch is non-empty as long as a batch at or after f remains below the bound — the
   consumer never stalls and never re-fetches a batch. *)
Theorem c08_position_advances : forall ops i f k idx,
  forallb valid_op ops = true ->
  let s := build ops in
  let resp := response s (bound s i) f k in
  index_req s i f resp idx ->
  let x := unpack i f idx resp in
  (resp <> [] ->
     position x = b_next (last resp dummy_batch) /\ f < position x /\
     (forall b, In b resp -> b_last b < position x)) /\
  (resp = [] -> position x = f) /\
  (forall b, In b (batches s) -> f <= b_last b < bound s i -> (1 <= k)%nat -> resp <> []).
Proof. intros ops i f k idx V s resp _. exact (position_advances _ (build_inv ops V) i f k idx). Qed.
Print Assumptions c08_position_advances.

(* Cut invariance.  Consume the log from f through ANY sequence of answers (each cut anywhere,
   each with any admissible index, each next fetch starting at the position reached): nothing
   raises and what has been delivered is exactly the visible part of the log between f and the
   position reached — a function of the log and the two offsets only, not of the cuts. *)
Theorem c08_cut_invariance : forall ops i f cuts,
  forallb valid_op ops = true ->
  let s := build ops in
  cuts_ok s i f cuts ->
  let x := fetch_seq s i f cuts in
  raised x = false /\ delivered x = view s i f (position x) /\ f <= position x.
Proof. intros ops i f cuts V. exact (fetch_seq_view _ i cuts f (build_inv ops V)). Qed.
Print Assumptions c08_cut_invariance.

(* ... in particular one big answer delivers the whole visible log from f, and any sequence of
   cuts that gets past the last batch below the bound delivers the same list *)
Theorem c08_cuts_equal_one_big_response : forall ops i f cuts k idx,
  forallb valid_op ops = true ->
  let s := build ops in
  cuts_ok s i f cuts ->
  (forall b, In b (batches s) -> b_last b < bound s i -> b_last b < position (fetch_seq s i f cuts)) ->
  (List.length (batches s) <= k)%nat ->
  index_req s i f (response s (bound s i) f k) idx ->
  delivered (fetch_seq s i f cuts) = delivered (unpack i f idx (response s (bound s i) f k)) /\
  delivered (fetch_seq s i f cuts) = view s i f (bound s i).
Proof. intros ops i f cuts k idx V. exact (cuts_equal_one_big_response _ (build_inv ops V) i f cuts k idx). Qed.
Print Assumptions c08_cuts_equal_one_big_response.

(* The index Kafka computes (aborted transactions with marker >= f and first offset < u, u at or
   after the end of the returned data), in any order, satisfies the index hypothesis. *)
Theorem c08_kafka_index_admissible : forall ops bnd f k u idx,
  forallb valid_op ops = true ->
  let s := build ops in
  (forall b, In b (response s bnd f k) -> b_base b < u) ->
  (forall e, In e (kafka_index s f u) <-> In e idx) ->
  index_ok s f (response s bnd f k) idx.
Proof. intros ops bnd f k u idx V. exact (kafka_index_admissible _ bnd f k u idx (build_inv ops V)). Qed.
Print Assumptions c08_kafka_index_admissible.

(* Coherence of the derived notions: every transactional data batch of a constructed log is in
   exactly one of the states committed / aborted / open, and below the LSO none is open. *)
Theorem c08_txn_trichotomy : forall ops b,
  forallb valid_op ops = true ->
  let s := build ops in
  In b (batches s) -> is_data_txn b = true ->
  ((committed s b = true /\ aborted s b = false /\ in_open s b = false) \/
   (committed s b = false /\ aborted s b = true /\ in_open s b = false) \/
   (committed s b = false /\ aborted s b = false /\ in_open s b = true)) /\
  (b_last b < lso s -> in_open s b = false).
Proof.
  intros ops b V s Ib D. pose proof (build_inv ops V) as H.
  exact (conj (txn_trichotomy s H b Ib D) (below_lso_not_open s H b Ib)).
Qed.
Print Assumptions c08_txn_trichotomy.

(* Non-vacuity: a concrete log of two transactional producers (7: one aborted transaction and
   one still open; 9: one committed transaction, compacted) and a plain batch.
     offsets 0-1  producer 7, transactional     (aborted)
             2    producer 9, transactional     (committed)
             3-4  non-transactional
             5    producer 7, transactional     (aborted)
             6    ABORT marker of 7
             7-8  producer 9, transactional, record 7 compacted away  (committed)
             9    COMMIT marker of 9
             10   producer 7, transactional     (open)        LSO = 10, HW = 11 *)
Definition ex_ops : list op :=
  [ ODataOp 7 true 2 (Some [(0, 100); (1, 101)]);
    ODataOp 9 true 1 (Some [(0, 200)]);
    ODataOp (-1) false 2 (Some [(0, 300); (1, 301)]);
    ODataOp 7 true 1 (Some [(0, 102)]);
    OMarkerOp 7 false;
    ODataOp 9 true 2 (Some [(1, 201)]);
    OMarkerOp 9 true;
    ODataOp 7 true 1 (Some [(0, 103)]) ].

Example c08_ex_valid : forallb valid_op ex_ops = true.
Proof. reflexivity. Qed.

Example c08_ex_lso_hw : lso (build ex_ops) = 10 /\ hw (build ex_ops) = 11.
Proof. split; reflexivity. Qed.

Example c08_ex_index : kafka_index (build ex_ops) 0 10 = [(7, 0)].
Proof. reflexivity. Qed.

(* the hypotheses of c08_rc_exact hold for this log, fetch offset 1 (inside the aborted
   transaction and inside its first batch), the whole log as one answer *)
Example c08_ex_hyps :
  let s := build ex_ops in
  index_ok s 1 (response s (lso s) 1 100) (kafka_index s 1 10).
Proof.
  cbv zeta. eapply c08_kafka_index_admissible with (u := 10); [reflexivity| |tauto].
  intros b Ib. vm_compute in Ib.
  repeat (destruct Ib as [<-|Ib]; [vm_compute; reflexivity|]). contradiction.
Qed.

Example c08_ex_rc :
  let s := build ex_ops in
  unpack RC 1 (kafka_index s 1 10) (response s (lso s) 1 100) =
  ([mkrec 2 200; mkrec 3 300; mkrec 4 301; mkrec 8 201], 10, false).
Proof. vm_compute. reflexivity. Qed.

Example c08_ex_ru :
  let s := build ex_ops in
  unpack RU 1 [] (response s (hw s) 1 100) =
  ([mkrec 1 101; mkrec 2 200; mkrec 3 300; mkrec 4 301; mkrec 5 102; mkrec 8 201; mkrec 10 103],
   11, false).
Proof. vm_compute. reflexivity. Qed.

(* three cuts (2 batches, then 1, then the rest) are admissible and deliver the same list *)
Example c08_ex_cuts :
  let s := build ex_ops in
  let cuts := [(2%nat, [(7, 0)]); (1%nat, [(7, 0)]); (100%nat, [(7, 0)])] in
  fetch_seq s RC 1 cuts = ([mkrec 2 200; mkrec 3 300; mkrec 4 301; mkrec 8 201], 10, false).
Proof. vm_compute. reflexivity. Qed.

(* C16 — Transactional API is a strict state machine with recoverable and fatal errors.
   Model: model/C16_TxnApi.v — [api : tstate -> call -> fault ->
   tstate * result * list req] written from TransactionManager / AIOKafkaProducer / the sender's
   handlers; every _transition_to goes through [table], the function TRANSLATED from
   TransactionState.is_transition_valid (gen/TxnTable.v), so a change of the table re-checks every
   proof below.  The real producer is run under the simulator on call programs with faults and
   must agree with [replay] call by call (harness/c16.py).
   [wfb s = true]: s is a state the producer can be in between two calls (READY, IN_TRANSACTION,
   ABORTABLE_ERROR carrying a topic/group authorization error, FATAL_ERROR).
   [SendNW p] is send() whose delivery future is not awaited: the next call starts at once with the
   batch still queued; [pending s] says such sends are outstanding.  The application awaits them
   when the next commit / abort / context exit has returned or raised, or right before any other
   call that is not a nowait send ([awaits_first s c]). *)
From Coq Require Import ZArith List Bool.
From Verif Require Import Imp TxnTable C16_TxnApi C16_proof.
From Verif Require DispatchActs TxnInitPidDispatch TxnAddPartitionsDispatch TxnAddOffsetsDispatch
  TxnOffsetCommitDispatch TxnEndDispatch C16_dispatch C16_agree.
Import ListNotations.

(* the table used by the model is the translated function *)
Theorem c16_table_is_translated : forall s t,
  table s t = match TxnTable.py (tcode s) (tcode t) with Ok b => b | Exn _ => false end.
Proof. intros s t. destruct s, t; vm_compute; reflexivity. Qed.
Print Assumptions c16_table_is_translated.

(* ... and that function is pinned to a hand-written table of the transition relation the protocol
   needs (model: [spec_must] / [spec_may], from KIP-98, the Java client's isTransitionValid and the
   order in which aiokafka's sender issues requests): every required transition is allowed — in
   particular into ABORTABLE_ERROR from IN_TRANSACTION, COMMITTING_TRANSACTION and
   ABORTING_TRANSACTION and into FATAL_ERROR from every other state — and nothing is allowed beyond
   these and the catch-all into the two error states (7 x 7 entries). *)
Theorem c16_table_meets_specification : forall s t,
  (spec_must s t = true -> table s t = true) /\ (table s t = true -> spec_may s t = true).
Proof. intros s t. destruct s, t; vm_compute; split; intros H; try reflexivity; try discriminate H. Qed.
Print Assumptions c16_table_meets_specification.

(* A call the documented protocol does not allow in the current state raises, changes nothing in
   the producer and emits no request — whatever fault is pending.  (With nowait sends outstanding
   the application awaits them first; that case is part of c16_refines_spec.) *)
Theorem c16_illegal_no_effect : forall s c f,
  wfb s = true -> pallowed (abs (st s)) c = false -> pending s = false ->
  exists e, api s c f = (s, RRaise e, []).
Proof.
  intros s c f W A NP. assert (R : refused_b s c = true) by (unfold refused_b; rewrite A, NP; reflexivity).
  destruct (refused s c f W R) as (e & _ & E). exists e. unfold api. rewrite E. reflexivity.
Qed.
Print Assumptions c16_illegal_no_effect.

(* ... and an allowed call never fails with the out-of-order errors (IllegalOperation /
   AssertionError of the transition table). *)
Theorem c16_legal_not_refused : forall s c f,
  wfb s = true -> pallowed (abs (st s)) c = true -> awaits_first s c = false ->
  is_order_error (api_res s c f) = false.
Proof.
  intros s c f W A AF. pose proof (call_fact legal_b s c f W ltac:(cbn; tauto)) as P.
  unfold legal_b in P. rewrite A, AF in P. simpl in P.
  destruct (is_order_error _); [discriminate|reflexivity].
Qed.
Print Assumptions c16_legal_not_refused.

(* From a started producer, with no fault or only faults every handler retries (connection drops,
   COORDINATOR_LOAD_IN_PROGRESS, COORDINATOR_NOT_AVAILABLE, NOT_COORDINATOR): all calls of a program
   return normally  iff  the program is a prefix of
   ( begin (send | nowait send | send_offsets)* (commit | abort | context exit) )*. *)
Theorem c16_accepts_protocol_order : forall cs s0,
  started = Some s0 ->
  forallb (fun cf => benign (snd cf)) cs = true ->
  all_accepted (fst (run s0 cs)) = in_protocol_order false (map fst cs).
Proof.
  intros cs s0 H B. vm_compute in H. inversion H; subst s0.
  apply accepts_protocol_order_gen; auto.
Qed.
Print Assumptions c16_accepts_protocol_order.

(* ... and under the same faults, with no sequence gap at a partition leader, every delivery
   future of a nowait send that is awaited during such a call has succeeded. *)
Theorem c16_nowait_futures_succeed : forall s c f i,
  wfb s = true -> inside_of s = Some i -> benign f = true -> dfa_next i c <> None ->
  futs_ok (api_futs s c f) = true.
Proof.
  intros s c f i W I B D. pose proof (call_fact lang_step_b s c f W ltac:(cbn; tauto)) as P.
  unfold lang_step_b in P. rewrite I, B in P.
  destruct (dfa_next i c); [|congruence].
  apply andb_prop in P. destruct P as [P _]. apply andb_prop in P. destruct P as [_ P]. exact P.
Qed.
Print Assumptions c16_nowait_futures_succeed.

(* Abortable errors.  ABORTABLE_ERROR is entered only by TOPIC_AUTHORIZATION_FAILED (on the
   AddPartitionsToTxn of a send, awaited or not), or GROUP_AUTHORIZATION_FAILED on AddOffsetsToTxn /
   TxnOffsetCommit of send_offsets_to_transaction ... *)
Theorem c16_abortable_cause : forall s c f,
  wfb s = true -> st s <> ABORTABLE -> st (api_st s c f) = ABORTABLE ->
  (exists i, f = Some (i, FErr E29) /\ (pending s = true \/ exists p, c = Send p)) \/
  (exists i, f = Some (i, FErr E30) /\ c = SendOffsets).
Proof.
  intros s c f W N A. pose proof (call_fact abortable_cause_b s c f W ltac:(cbn; tauto)) as P.
  unfold abortable_cause_b in P. rewrite (enters_true _ _ _ N A) in P. cbv iota in P.
  destruct f as [[i [k| |]]|]; try discriminate.
  destruct k; try discriminate.
  - left. exists i. split; [reflexivity|].
    destruct (pending s); [left; reflexivity|]. right.
    destruct c; try discriminate. eexists; reflexivity.
  - right. exists i. split; [reflexivity|]. destruct c; try discriminate; reflexivity.
Qed.
Print Assumptions c16_abortable_cause.

(* ... then commit (and a clean context exit) raise exactly that error and send nothing, under any
   pending fault; abort (and the context exit with an exception) succeed and lead to READY; and a
   following begin . send . commit succeeds and ends in READY (for a partition whose leader is not
   missing a sequence range, see [gap0]/[gap1] in the model). *)
Theorem c16_abortable_recovers : forall s c f,
  wfb s = true -> st s <> ABORTABLE -> st (api_st s c f) = ABORTABLE ->
  let s1 := api_st s c f in
  exists e, werr s1 = Some e /\ (e = XCode E29 \/ e = XCode E30) /\
    (forall f', api s1 Commit f' = (s1, RRaise e, [])) /\
    (forall f', api s1 CtxOk f' = (s1, RRaise e, [])) /\
    api_res s1 Abort None = ROk /\ st (api_st s1 Abort None) = READY /\
    api_res s1 CtxExc None = ROk /\ st (api_st s1 CtxExc None) = READY /\
    (gap0 s = false -> all_accepted (fst (run (api_st s1 Abort None) healthy_txn)) = true) /\
    (gap1 s = false -> all_accepted (fst (run (api_st s1 Abort None) healthy_txn1)) = true) /\
    st (snd (run (api_st s1 Abort None) healthy_txn)) = READY.
Proof.
  intros s c f W N A s1. pose proof (call_fact abortable_b s c f W ltac:(cbn; tauto)) as P.
  assert (A1 : st s1 = ABORTABLE) by exact A.
  unfold abortable_b in P. cbv zeta in P. fold s1 in P.
  rewrite (enters_true _ _ _ N A1) in P. cbv iota in P.
  pose proof (wf_preserved s c f W) as W1. fold s1 in W1.
  destruct (werr s1) as [e|] eqn:We; [|discriminate]. exists e. split; [reflexivity|].
  assert (R : forall c f', c = Commit \/ c = CtxOk -> api s1 c f' = (s1, RRaise e, [])).
  { intros c' f' C. destruct (abortable_commit_raises s1 c' f' W1 A1 C) as (e' & E1 & E2).
    rewrite We in E1. inversion E1; subst e'. exact E2. }
  unfold result_eqb in P. rewrite_strat (bottomup (hints b2p)) in P.
  destruct P as [[[[[[[P1 P2] P3] P4] P5] P6] P7] P8].
  split; [exact P1|]. split; [intros f'; apply R; auto|]. split; [intros f'; apply R; auto|].
  repeat (split; [assumption|]).
  split; [intros G; destruct P6; congruence|]. split; [intros G; destruct P7; congruence | exact P8].
Qed.
Print Assumptions c16_abortable_recovers.

(* The call during which the abortable error arrives fails (for a send: its future, the batch that
   was waiting for the partition is failed and never produced), and the partitions and the group
   already registered with the coordinator are kept ... *)
Theorem c16_abortable_keeps_registered : forall s c f,
  wfb s = true -> st s <> ABORTABLE -> st (api_st s c f) = ABORTABLE ->
  (p0 s = true -> p0 (api_st s c f) = true) /\ (p1 s = true -> p1 (api_st s c f) = true) /\
  (grp s = true -> grp (api_st s c f) = true) /\
  is_error (api_res s c f) = true /\
  (pending s = false -> p0 (api_st s c f) = p0 s /\ p1 (api_st s c f) = p1 s).
Proof.
  intros s c f W N A. pose proof (call_fact abortable_keeps_b s c f W ltac:(cbn; tauto)) as P.
  unfold abortable_keeps_b in P. rewrite (enters_true _ _ _ N A) in P. cbv iota in P.
  destruct (pending s); cbn [negb] in P; rewrite_strat (bottomup (hints b2p)) in P; intuition discriminate.
Qed.
Print Assumptions c16_abortable_keeps_registered.

(* ... so that abort (and the context exit with an exception) sends EndTxn(ABORT) exactly when
   something is registered there. *)
Theorem c16_abort_ends_at_coordinator : forall s,
  wfb s = true -> st s = ABORTABLE ->
  api_req s Abort None = (if is_empty_txn s then [] else [REndTxn false]) /\
  api_req s CtxExc None = (if is_empty_txn s then [] else [REndTxn false]).
Proof.
  intros s W A. destruct (wsweep_sound _ _ _ _ _ api_facts s W) as [P _].
  unfold abort_sends_endtxn_b, reqs_eqb in P. rewrite A, tst_eqb_eq in P. rewrite_strat (bottomup (hints b2p)) in P. exact P.
Qed.
Print Assumptions c16_abort_ends_at_coordinator.

(* The abortable error can arrive while the transaction is being ended: nowait sends to a partition
   the transaction does not have yet ([unregistered s] non-empty), then commit / abort / context exit
   at once — the AddPartitionsToTxn is sent while the manager is COMMITTING / ABORTING.  When it is
   refused with TOPIC_AUTHORIZATION_FAILED the call raises that error, the producer is in
   ABORTABLE_ERROR (so c16_abortable_recovers applies: commit raises it, abort leads to READY and a
   new transaction succeeds), what was registered is kept, the batches waiting for the partition are
   failed with the error and never produced, and no EndTxn is sent. *)
Theorem c16_abortable_while_ending : forall s c,
  wfb s = true -> st s = IN_TXN -> is_end c = true -> is_none (unregistered s) = false ->
  let f29 := Some (I0, FErr E29) in
  st (api_st s c f29) = ABORTABLE /\ api_res s c f29 = RRaise (XCode E29) /\
  werr (api_st s c f29) = Some (XCode E29) /\
  api_req s c f29 = RAddPartitions (unregistered s)
                    :: (if is_none (registered_nw s) then [] else [RProduce (registered_nw s)]) /\
  fut_failed_for (unregistered s) (XCode E29) (api_futs s c f29) = true /\
  p0 (api_st s c f29) = p0 s /\ p1 (api_st s c f29) = p1 s /\ grp (api_st s c f29) = grp s.
Proof.
  intros s c W I E U f29. destruct (wsweep_sound _ _ _ _ _ api_facts s W) as [_ H]. destruct (H c) as [P _].
  unfold ending_error_b in P. rewrite I, tst_eqb_eq, E, U in P.
  change (true && true && negb false) with true in P. cbv iota zeta in P. fold f29 in P.
  unfold result_eqb, reqs_eqb, werr_eqb in P. rewrite_strat (bottomup (hints b2p)) in P. tauto.
Qed.
Print Assumptions c16_abortable_while_ending.

(* Fatal errors are absorbing: from FATAL_ERROR every program leaves the state unchanged, emits
   no request, and every call fails — except the context exit with an exception, which lets the
   application's exception propagate. *)
Theorem c16_fatal_absorbing : forall cs s,
  st s = FATAL ->
  snd (run s cs) = s /\
  Forall (fun o => snd o = []) (fst (run s cs)) /\
  Forall2 (fun cf o => is_error (fst o) = true \/ fst cf = CtxExc) cs (fst (run s cs)).
Proof.
  induction cs as [|[c f] rest IH]; intros s F.
  - simpl. repeat split; constructor.
  - rewrite run_cons. destruct (fatal_absorbing_step s c f F) as (E1 & E2 & E3).
    rewrite E1. destruct (IH s F) as (I1 & I2 & I3). simpl. repeat split.
    + exact I1.
    + constructor; [exact E2 | exact I2].
    + constructor; [exact E3 | exact I3].
Qed.
Print Assumptions c16_fatal_absorbing.

(* The call during which the fatal error happens fails with the stored error (for a send this is
   the pending send future) — or, when the call first awaited outstanding nowait sends, one of those
   futures failed with it and the call itself is refused — and the transaction's partitions and
   group are dropped. *)
Theorem c16_fatal_entry : forall s c f,
  wfb s = true -> st s <> FATAL -> st (api_st s c f) = FATAL ->
  is_error (api_res s c f) = true /\
  (werr (api_st s c f) = exn_of (api_res s c f) \/
   (awaits_first s c = true /\ fut_is (werr (api_st s c f)) (api_futs s c f) = true)) /\
  is_empty_txn (api_st s c f) = true.
Proof.
  intros s c f W N A. pose proof (call_fact fatal_entry_b s c f W ltac:(cbn; tauto)) as P.
  unfold fatal_entry_b in P. rewrite (enters_true _ _ _ N A) in P. cbv iota in P.
  unfold werr_eqb in P at 1. rewrite_strat (bottomup (hints b2p)) in P. tauto.
Qed.
Print Assumptions c16_fatal_entry.

(* Refinement: every program run of [api] from a well-formed state is a run of the independent
   7-state automaton of the documented protocol (each allowed call follows one of its documented
   event paths through UNINITIALIZED/READY/IN_TRANSACTION/COMMITTING/ABORTING/ABORTABLE_ERROR/
   FATAL_ERROR with a fitting result — an abortable error may also arrive in COMMITTING / ABORTING;
   each call that is not allowed is refused without effect; with nowait sends outstanding, their
   abortable / fatal error may surface when they are awaited before a call). *)
Theorem c16_refines_spec : forall cs s,
  wfb s = true ->
  spec_run (abs (st s)) (pending s) (observe s cs) (abs (st (snd (run s cs)))) /\
  wfb (snd (run s cs)) = true.
Proof. exact refines_spec. Qed.
Print Assumptions c16_refines_spec.

(* Which errors are fatal.  On every coordinator request (AddPartitionsToTxn, AddOffsetsToTxn,
   TxnOffsetCommit, EndTxn) fencing (INVALID_PRODUCER_EPOCH), TRANSACTIONAL_ID_AUTHORIZATION_FAILED
   and OUT_OF_ORDER_SEQUENCE are fatal, and whenever an awaited API call raises one of these
   exception classes the producer is in FATAL_ERROR ... *)
Theorem c16_fatal_classes_partial :
  (forall k, coord_kind k = true ->
     classify k (FErr E47) = AFatal XProducerFenced /\
     classify k (FErr E53) = AFatal (XCode E53) /\
     classify k (FErr E45) = AFatal (XCode E45)) /\
  (forall s c f e, wfb s = true -> api_res s c f = RRaise e -> fatal_exn e = true ->
     st (api_st s c f) = FATAL).
Proof.
  split.
  - intros k H. destruct k; try discriminate; repeat split.
  - intros s c f e W R F. pose proof (call_fact fatal_raise_b s c f W ltac:(cbn; tauto)) as P.
    unfold fatal_raise_b in P. rewrite R, F in P. apply tst_eqb_true in P. exact P.
Qed.
Print Assumptions c16_fatal_classes_partial.

(* ... but the full clause of the property — "after a fatal error (fencing, sequence violation,
   transactional-id authorization) every later transactional call and every pending send fails" —
   also covers these errors arriving in a Produce response.  As a statement about the model:
   whenever a call fails with a fatal-class exception the producer is in FATAL_ERROR afterwards. *)
Definition C16_fatal_classes_full : Prop :=
  forall s c f, wfb s = true -> fatal_class_result (api_res s c f) = true ->
                st (api_st s c f) = FATAL.

(* It is false of the code as it is: SendProduceReqHandler.handle_response fails the batch and
   leaves the transaction manager alone.  Witness (replayed on the real producer by
   harness/c16.py, recorded in known_findings.d/C16.json): begin . send(p0) with
   OUT_OF_ORDER_SEQUENCE on the Produce -> the send future fails, the state stays IN_TRANSACTION,
   and the following commit sends EndTxn(commit) and succeeds. *)
Theorem c16_fatal_classes_refuted :
  ~ C16_fatal_classes_full /\
  wfb in_txn_p0 = true /\
  api in_txn_p0 (Send P0) (Some (I1, FErr E45)) =
    (mkT IN_TXN true false false false None true false false false, RFutFail (XCode E45),
     [RAddPartitions (one P0); RProduce (one P0)]) /\
  api (mkT IN_TXN true false false false None true false false false) Commit None =
    (mkT READY false false false false None true false false false, ROk, [REndTxn true]).
Proof.
  split; [|repeat split].
  intros H. specialize (H in_txn_p0 (Send P0) (Some (I1, FErr E45)) eq_refl eq_refl).
  vm_compute in H. discriminate.
Qed.
Print Assumptions c16_fatal_classes_refuted.

(* The error dispatch of the five transactional response handlers is regenerated from sender.py on
   every run (translator/dispatch2gallina.py, gen/Txn*Dispatch.v) and validated against the real
   handlers for every code -1..100. *)

(* the per-handler classification this model uses (cl_add_partitions, cl_add_offsets,
   cl_txn_offset_commit, cl_end_txn) is the one the source implements, for every error code of the model:
   same class (retry / abortable / fatal) and same coordinator rediscovery *)
Theorem c16_model_classification_agrees_with_source : forall c : code,
  (forall b, C16_agree.class_of_action (cl_add_partitions c) =
             C16_agree.of_chain (TxnAddPartitionsDispatch.txnAddPartitionsDispatch (code_num c) b)) /\
  C16_agree.class_of_action (cl_add_offsets c) =
    C16_agree.of_chain (TxnAddOffsetsDispatch.txnAddOffsetsDispatch (code_num c)) /\
  C16_agree.class_of_action (cl_txn_offset_commit c) =
    C16_agree.of_chain (TxnOffsetCommitDispatch.txnOffsetCommitDispatch (code_num c)) /\
  C16_agree.class_of_action (cl_end_txn c) =
    C16_agree.of_chain (TxnEndDispatch.txnEndDispatch (code_num c)).
Proof. intros c. destruct c; repeat split; try (intros []); vm_compute; reflexivity. Qed.
Print Assumptions c16_model_classification_agrees_with_source.

(* fencing and transactional-id authorization are fatal in every handler where they can arrive;
   topic / group authorization failures are abortable (recorded, not raised out of the sender) *)
Theorem c16_source_fatal_and_abortable_classes :
  ((forall b, C16_dispatch.classify (TxnAddPartitionsDispatch.txnAddPartitionsDispatch C16_dispatch.FENCED b) = C16_dispatch.TFatal) /\
   C16_dispatch.classify (TxnAddOffsetsDispatch.txnAddOffsetsDispatch C16_dispatch.FENCED) = C16_dispatch.TFatal /\
   C16_dispatch.classify (TxnOffsetCommitDispatch.txnOffsetCommitDispatch C16_dispatch.FENCED) = C16_dispatch.TFatal /\
   C16_dispatch.classify (TxnEndDispatch.txnEndDispatch C16_dispatch.FENCED) = C16_dispatch.TFatal /\
   C16_dispatch.classify (TxnInitPidDispatch.txnInitPidDispatch C16_dispatch.TXN_ID_AUTH) = C16_dispatch.TFatal /\
   (forall b, C16_dispatch.classify (TxnAddPartitionsDispatch.txnAddPartitionsDispatch C16_dispatch.TXN_ID_AUTH b) = C16_dispatch.TFatal) /\
   C16_dispatch.classify (TxnAddOffsetsDispatch.txnAddOffsetsDispatch C16_dispatch.TXN_ID_AUTH) = C16_dispatch.TFatal /\
   C16_dispatch.classify (TxnOffsetCommitDispatch.txnOffsetCommitDispatch C16_dispatch.TXN_ID_AUTH) = C16_dispatch.TFatal /\
   C16_dispatch.classify (TxnEndDispatch.txnEndDispatch C16_dispatch.TXN_ID_AUTH) = C16_dispatch.TFatal) /\
  ((forall b, C16_dispatch.classify (TxnAddPartitionsDispatch.txnAddPartitionsDispatch C16_dispatch.TOPIC_AUTH b) = C16_dispatch.TAbortable) /\
   C16_dispatch.classify (TxnAddOffsetsDispatch.txnAddOffsetsDispatch C16_dispatch.GROUP_AUTH) = C16_dispatch.TAbortable /\
   C16_dispatch.classify (TxnOffsetCommitDispatch.txnOffsetCommitDispatch C16_dispatch.GROUP_AUTH) = C16_dispatch.TAbortable).
Proof. repeat split; try (intros []); vm_compute; reflexivity. Qed.
Print Assumptions c16_source_fatal_and_abortable_classes.

(* for EVERY integer code: an error code no branch names is fatal in the EndTxn, AddOffsetsToTxn,
   TxnOffsetCommit, AddPartitionsToTxn and InitProducerId handlers - never silently ignored or retried *)
Theorem c16_source_unnamed_codes_are_fatal : forall c,
  (~ In c TxnEndDispatch.txnEndDispatch_named_codes ->
     C16_dispatch.classify (TxnEndDispatch.txnEndDispatch c) = C16_dispatch.TFatal) /\
  (~ In c TxnAddOffsetsDispatch.txnAddOffsetsDispatch_named_codes ->
     C16_dispatch.classify (TxnAddOffsetsDispatch.txnAddOffsetsDispatch c) = C16_dispatch.TFatal) /\
  (~ In c TxnOffsetCommitDispatch.txnOffsetCommitDispatch_named_codes ->
     C16_dispatch.classify (TxnOffsetCommitDispatch.txnOffsetCommitDispatch c) = C16_dispatch.TFatal) /\
  (forall b, ~ In c TxnAddPartitionsDispatch.txnAddPartitionsDispatch_named_codes ->
     C16_dispatch.classify (TxnAddPartitionsDispatch.txnAddPartitionsDispatch c b) = C16_dispatch.TFatal) /\
  (~ In c TxnInitPidDispatch.txnInitPidDispatch_named_codes ->
     C16_dispatch.classify (TxnInitPidDispatch.txnInitPidDispatch c) = C16_dispatch.TFatal).
Proof.
  intros c. repeat split; [| | | intros b |]; intros Hn.
  - unfold TxnEndDispatch.txnEndDispatch. C16_dispatch.unnamed Hn. reflexivity.
  - unfold TxnAddOffsetsDispatch.txnAddOffsetsDispatch. C16_dispatch.unnamed Hn. reflexivity.
  - unfold TxnOffsetCommitDispatch.txnOffsetCommitDispatch. C16_dispatch.unnamed Hn. reflexivity.
  - unfold TxnAddPartitionsDispatch.txnAddPartitionsDispatch. C16_dispatch.unnamed Hn. reflexivity.
  - unfold TxnInitPidDispatch.txnInitPidDispatch. C16_dispatch.unnamed Hn. reflexivity.
Qed.
Print Assumptions c16_source_unnamed_codes_are_fatal.

(* non-vacuity: the started state exists and is well-formed; a full protocol run with an abortable
   error, recovery and a second transaction *)
Example c16_started : exists s0, started = Some s0 /\ wfb s0 = true /\ st s0 = READY.
Proof. eexists. split; [vm_compute; reflexivity|]. split; reflexivity. Qed.

Example c16_run_example :
  exists s0, started = Some s0 /\
  map fst (fst (run s0 [(Begin, None); (Send P0, None); (SendOffsets, Some (I0, FErr E30));
                        (Commit, None); (Abort, None); (Begin, None); (Send P1, None); (Commit, None)]))
  = [ROk; ROk; RRaise (XCode E30); RRaise (XCode E30); ROk; ROk; ROk; ROk].
Proof. eexists. split; reflexivity. Qed.

(* the same error arriving while committing: begin . nowait send(p0) . commit with
   TOPIC_AUTHORIZATION_FAILED on the AddPartitionsToTxn . abort . begin . send(p0) . commit *)
Example c16_run_example_nowait :
  exists s0, started = Some s0 /\
  map fst (fst (run s0 [(Begin, None); (SendNW P0, None); (Commit, Some (I0, FErr E29));
                        (Commit, None); (Abort, None); (Begin, None); (Send P0, None); (Commit, None)]))
  = [ROk; ROk; RRaise (XCode E29); RRaise (XCode E29); ROk; ROk; ROk; ROk].
Proof. eexists. split; reflexivity. Qed.

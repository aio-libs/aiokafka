(* C11 — API messages encode to the Kafka wire format and negotiate versions safely.
   Public statements.  Proofs: proof/C11_roundtrip.v (generic codec), C11_unordered.v (dicts in
   any order), C11_flat.v (inlining of nested structures), C11_negotiate.v (Request.prepare,
   builder guards), C11_tables.v (finite checks over gen/Schemas.v, which
   translator/schema2gallina.py regenerates from the imported aiokafka.protocol classes on every
   run).  Models: model/Wire.v (types.py primitive by primitive), model/KafkaSpec.v (independent
   hand-written Kafka layout table), model/C11Negotiate.v, model/C11Tables.v (the checkers),
   model/WireTables.v, model/WireRun.v; gen/PrepareGen.v is Request.prepare as translated. *)
From Coq Require Import ZArith List Bool String Lia ZifyBool.
From Verif Require Import PrepareGen.
From Verif Require Import Wire WireTables KafkaSpec C11Negotiate C11Tables WireRun Schemas
                          C11_roundtrip C11_unordered C11_negotiate C11_flat C11_tables.
Import ListNotations.
Open Scope Z_scope.

(* Round trip.  For every wire type and every value inside the type's domain [wt]
   (integer extremes, null / empty / 32767-byte strings, null / empty / nested arrays, null
   bytes, varints of every length, tagged fields with contents), decoding the encoding —
   followed by arbitrary further bytes — returns the value and exactly those further bytes.
   [wt] is the set of canonical values; it restricts, and says so: VarInt32 to 0..2^31-1,
   VarInt64 to 0..63 (c11_varint32/64_refuted below; no struct uses them), TaggedFields to tags >= 0 listed in
   strictly increasing order (the form decode returns; other orders: c11_roundtrip_unordered). *)
Theorem c11_roundtrip : forall t v r, wt t v = true -> dec t (enc t v ++ r) = Some (v, r).
Proof. exact roundtrip. Qed.
Print Assumptions c11_roundtrip.

(* TaggedFields values are Python dicts; the model carries a dict as its item list in
   iteration order.  For every value whose dicts have distinct tags in 0..2^32-1 in ANY
   order ([wtu]), the encoding is that of the value with each dict sorted by tag ([vnorm],
   the same finite maps), and decoding returns exactly that sorted value. *)
Theorem c11_roundtrip_unordered : forall t v r,
  wtu t v = true -> dec t (enc t v ++ r) = Some (vnorm v, r).
Proof.
  intros t v r H. destruct (norm_all t v H) as [He Hw].
  rewrite <- He. apply roundtrip. exact Hw.
Qed.
Print Assumptions c11_roundtrip_unordered.

(* the two facts the statement above rests on *)
Theorem c11_unordered_normal_form : forall t v,
  wtu t v = true -> enc t (vnorm v) = enc t v /\ wt t (vnorm v) = true.
Proof. exact norm_all. Qed.
Print Assumptions c11_unordered_normal_form.

(* every schema generated from the tree (103 request structs, 103 response structs, headers,
   consumer-protocol / sticky / legacy-message schemas) uses only types whose [wt] is the
   full Kafka range, i.e. neither VarInt32 nor VarInt64 *)
Theorem c11_all_structs_wellformed : forall n t, In (n, t) schemas -> covered t = true.
Proof. intros n t. exact (forallb_In _ _ all_covered (n, t)). Qed.
Print Assumptions c11_all_structs_wellformed.

(* c11_roundtrip at the generated schemas (membership in [schemas] is not used) *)
Theorem c11_all_structs_roundtrip : forall n t, In (n, t) schemas ->
  forall v r, wt t v = true -> dec t (enc t v ++ r) = Some (v, r).
Proof. intros n t _. apply roundtrip. Qed.
Print Assumptions c11_all_structs_roundtrip.

(* Layout.  Full statement: every generated request / response schema puts the same
   bytes on the wire as the hand-written Kafka table entry of its (api key, version), and
   is flexible exactly when Kafka says so. *)
Definition C11_layout_conforms_full : Prop :=
  (forall r, In r requests -> req_layout_ok r = true) /\
  (forall r, In r responses -> resp_layout_ok r = true).

(* Proved: the full statement except for the structs named in
   [known_layout_deviations] (DescribeAclsRequest_v2 / DescribeAclsResponse_v2: v2 is a
   flexible version in Kafka, the tree declares the v1 layout and FLEXIBLE_VERSION = False;
   neither is in a builder's _CLASSES).  Entries of the table whose version KafkaSpec does
   not state count as conforming here; the check reports them as "not covered". *)
Theorem c11_layout_conforms_partial :
  (forall r, In r requests -> req_layout_ok r = true \/ In (rq_name r) known_layout_deviations) /\
  (forall r, In r responses -> resp_layout_ok r = true \/ In (rs_name r) known_layout_deviations) /\
  (forall e, In e aux_structs -> aux_layout_ok e = true).
Proof. exact (conj layout_requests (conj layout_responses layout_aux)). Qed.
Print Assumptions c11_layout_conforms_partial.

(* [layout_eqb] compares schemas after inlining nested structures ([flat]); that is sound:
   a schema and its inlined form — hence any two schemas with equal inlined forms — produce
   the same bytes for every in-range value ([vflat] is the value seen through the inlining).
   So for every conforming struct the library's bytes are the bytes of the Kafka table
   entry, for all values, not only the sampled ones. *)
Theorem c11_same_layout_same_bytes : forall s t v,
  layout_eqb s t = true -> wt t v = true ->
  enc (TSchema (flat s)) (VTup (vflat t v)) = enc t v.
Proof.
  intros s t v Hl Hwt. rewrite <- (flat_same_bytes t v Hwt).
  unfold layout_eqb in Hl. rewrite (ty_eqb_eq _ _ Hl). reflexivity.
Qed.
Print Assumptions c11_same_layout_same_bytes.

(* the layout comparison on literal copies of deviating schemas: the recorded
   DescribeAcls v2 request, and ListOffsets v4 as it was before its fix *)
Example c11_layout_deviation_witnesses :
  option_map (layout_eqb witness_DescribeAclsRequest_v2) (spec_request 29 2) = Some false /\
  spec_flexible 29 2 = Some true /\
  option_map (layout_eqb witness_OffsetRequest_v4_before_fix) (spec_request 2 4) = Some false.
Proof. vm_compute. repeat split. Qed.

(* Version negotiation (model of Request.prepare). *)
(* tie T: Request.prepare as translated from aiokafka/protocol/api.py on this run (gen/PrepareGen.v: the class used when
   the broker's range is unknown, the iteration order over _CLASSES, the range condition) IS the model function
   `prepare` that the statements below are about, for every version list, flag and advertised range *)
Theorem c11_prepare_is_translated : forall vers allow adv,
  PrepareGen.prepare_py vers allow adv = prepare vers allow adv.
Proof.
  intros vers allow adv. unfold PrepareGen.prepare_py, prepare. destruct adv as [[lo hi]|].
  - unfold prepare_pick, in_rng. reflexivity.
  - destruct allow; [|reflexivity]. destruct vers; reflexivity.
Qed.
Print Assumptions c11_prepare_is_translated.

(* for every class list sorted by version and every advertised (min,max): the class built
   has the greatest supported version inside [min,max]; NotImplementedError exactly when no
   supported version is inside; nothing else happens *)
Theorem c11_prepare_highest : forall vers allow lo hi,
  sorted_lt vers = true ->
  match prepare vers allow (Some (lo, hi)) with
  | Chosen i v => nth_error vers i = Some v /\ lo <= v <= hi /\
                  (forall w, In w vers -> lo <= w <= hi -> w <= v)
  | ErrNotImplemented => forall w, In w vers -> ~ (lo <= w <= hi)
  | _ => False
  end.
Proof. exact prepare_highest. Qed.
Print Assumptions c11_prepare_highest.

(* never a version outside the advertised range, whatever the order of the list *)
Theorem c11_prepare_in_range : forall vers allow lo hi i v,
  prepare vers allow (Some (lo, hi)) = Chosen i v -> nth_error vers i = Some v /\ lo <= v <= hi.
Proof.
  intros vers allow lo hi i v. unfold prepare.
  pose proof (pick_spec vers lo hi) as S. unfold in_rng in S.
  destruct (prepare_pick vers lo hi) as [[j u]|]; [|discriminate].
  intros [= -> ->]. destruct S as (l1 & l2 & -> & -> & Hv & _).
  split; [rewrite nth_error_app2, Nat.sub_diag by lia; reflexivity|lia].
Qed.
Print Assumptions c11_prepare_in_range.

(* every generated _CLASSES list is non-empty, strictly ascending in API_VERSION, and made
   of request structs of the builder's own API key *)
Theorem c11_class_lists_sorted : forall b, In b builders -> builder_ok requests b = true.
Proof. exact builders_ok. Qed.
Print Assumptions c11_class_lists_sorted.

Theorem c11_builders_prepare_highest : forall b lo hi, In b builders ->
  match prepare (map snd (bd_classes b)) (bd_allow_unknown b) (Some (lo, hi)) with
  | Chosen i v => nth_error (map snd (bd_classes b)) i = Some v /\ lo <= v <= hi /\
                  (forall w, In w (map snd (bd_classes b)) -> lo <= w <= hi -> w <= v)
  | ErrNotImplemented => forall w, In w (map snd (bd_classes b)) -> ~ (lo <= w <= hi)
  | _ => False
  end.
Proof. intros b lo hi H. apply prepare_highest, builder_sorted, H. Qed.
Print Assumptions c11_builders_prepare_highest.

(* the version a struct puts into the request header is the one its class name declares;
   no two request (response) structs share an (api key, version) *)
Theorem c11_struct_versions :
  (forall r, In r requests -> rq_name_ver r = rq_ver r /\ 0 <= rq_ver r) /\
  (forall r, In r responses -> rs_name_ver r = rs_ver r /\ 0 <= rs_ver r) /\
  nodup_zz (map (fun r => (rq_key r, rq_ver r)) requests) = true /\
  nodup_zz (map (fun r => (rs_key r, rs_ver r)) responses) = true.
Proof. exact (conj names_requests (conj names_responses versions_unique)). Qed.
Print Assumptions c11_struct_versions.

(* Reply pairing.  For every request struct: RESPONSE_TYPE has the same api key and a
   schema equal to the schema of the response struct of the request's own version (so a
   RESPONSE_TYPE of another version is allowed only when the two layouts are identical:
   ApiVersionRequest_v2 -> ApiVersionResponse_v1); build_request_header /
   parse_response_header use the flexible header classes exactly when FLEXIBLE_VERSION, and
   the request and response schemas are flexible (compact encodings, trailing tagged-field
   buffer) exactly then. *)
Theorem c11_reply_pairing : forall r, In r requests -> pairing_ok responses r = true.
Proof. exact pairing. Qed.
Print Assumptions c11_reply_pairing.

(* Meaning guards (model of the builders' build()). *)
(* a parameter named by the property that the negotiated version cannot express is
   rejected with IncompatibleBrokerVersion, for every version and every combination of
   the other parameters *)
Theorem c11_meaning_guard : forall key ver present p,
  0 <= ver -> listed p = true -> applies key p = true -> present p = true ->
  expressible key ver p = false ->
  guard key ver present = false.
Proof. exact meaning_guard. Qed.
Print Assumptions c11_meaning_guard.

(* conversely a guard never fires without such a parameter *)
Theorem c11_guard_not_spurious : forall key ver present,
  guard key ver present = false ->
  exists p, applies key p = true /\ present p = true /\ expressible key ver p = false.
Proof. exact guard_not_spurious. Qed.
Print Assumptions c11_guard_not_spurious.

(* prepare followed by build: whenever a struct comes out, every listed parameter that is
   present is expressible in the struct's version *)
Theorem c11_negotiate_guarded : forall key vers allow adv present i v p,
  negotiate key vers allow adv present = Chosen i v -> 0 <= v ->
  listed p = true -> applies key p = true -> present p = true ->
  expressible key v p = true.
Proof.
  intros key vers allow adv present i v p H Hv Hl Ha Hp. unfold negotiate in H.
  destruct (prepare vers allow adv) as [j u| | |] eqn:E; try discriminate.
  destruct (guard key u present) eqn:G; [|discriminate].
  inversion H; subst.
  destruct (expressible key v p) eqn:X; [reflexivity|].
  rewrite (meaning_guard key v present p Hv Hl Ha Hp X) in G. discriminate.
Qed.
Print Assumptions c11_negotiate_guarded.

(* Extended statement over *all* builder parameters (not only the ones the property lists):
   false of the model — allow_auto_topic_creation=False (Metadata < v4), group_instance_id
   (JoinGroup < v5, SyncGroup < v3), rack_id (Fetch < v11, documented in fetch.py) and the
   ACL pattern type (v0) are dropped without an error.  Reported as observations. *)
Definition C11_meaning_guard_all_params_full : Prop := forall key ver present p,
  0 <= ver -> applies key p = true -> present p = true -> expressible key ver p = false ->
  guard key ver present = false.

Theorem c11_meaning_guard_all_params_refuted : ~ C11_meaning_guard_all_params_full.
Proof.
  intros H. specialize (H 3 1 (only PNoAutoTopicCreation) PNoAutoTopicCreation).
  vm_compute in H. assert (true = false) by (apply H; congruence). discriminate.
Qed.
Print Assumptions c11_meaning_guard_all_params_refuted.

Theorem c11_unlisted_params_dropped :
  (applies 3 PNoAutoTopicCreation = true /\ expressible 3 1 PNoAutoTopicCreation = false /\
   guard 3 1 (only PNoAutoTopicCreation) = true) /\
  (applies 11 PGroupInstanceId = true /\ expressible 11 2 PGroupInstanceId = false /\
   guard 11 2 (only PGroupInstanceId) = true) /\
  (applies 14 PGroupInstanceId = true /\ expressible 14 1 PGroupInstanceId = false /\
   guard 14 1 (only PGroupInstanceId) = true) /\
  (applies 1 PRackId = true /\ expressible 1 10 PRackId = false /\ guard 1 10 (only PRackId) = true) /\
  (applies 29 PPatternType = true /\ expressible 29 0 PPatternType = false /\
   guard 29 0 (only PPatternType) = true).
Proof. vm_compute. repeat split. Qed.
Print Assumptions c11_unlisted_params_dropped.

(* the hand-written "expressible from version N" table agrees with KafkaSpec: the field
   that carries the parameter appears in the specified request layout exactly from N on *)
Example c11_expressible_agrees_with_spec : expressible_agrees_with_spec = true.
Proof. vm_compute. reflexivity. Qed.

(* Outside the quantifier: VarInt32 / VarInt64 (used by no struct: c11_all_structs_wellformed)
   do not round trip on ordinary int32 / int64 values — the faithful model reproduces what the
   real encoders do (replayed on the real code by harness/c11.py). *)
Theorem c11_varint32_refuted :
  wt TInt32 (VInt (-1)) = true /\
  dec TVarInt32 (enc TVarInt32 (VInt (-1))) = Some (VInt (-2147483648), []).
Proof. vm_compute. split; reflexivity. Qed.
Print Assumptions c11_varint32_refuted.

Theorem c11_varint64_refuted :
  wt TInt64 (VInt 300) = true /\
  dec TVarInt64 (enc TVarInt64 (VInt 300)) = Some (VInt 278, []).
Proof. vm_compute. split; reflexivity. Qed.
Print Assumptions c11_varint64_refuted.

(* the domains are inhabited, and the functions compute what the examples say *)
Example c11_wt_satisfiable :
  wt s_ProduceRequest_v3
     (VTup [VStr (Some [116; 120]); VInt (-1); VInt 2147483647;
            VArr (Some [VTup [VStr (Some [195; 169]); VArr (Some [VTup [VInt 0; VBytes None]])]])]) = true /\
  wt s_DeleteRecordsRequest_v2
     (VTup [VArr (Some [VTup [VStr (Some [116]); VArr (Some [VTup [VInt 1; VInt (-1); VTagged [(1, [7; 7])]]]);
                              VTagged []]]);
            VInt 30000; VTagged [(2, []); (4294967295, [0])]]) = true.
Proof. vm_compute. split; reflexivity. Qed.

Example c11_wtu_satisfiable :
  wt TTagged (VTagged [(0, [120]); (7, [])]) = true /\
  wt TTagged (VTagged [(2, [97]); (1, [98])]) = false /\
  wtu TTagged (VTagged [(2, [97]); (1, [98])]) = true /\
  enc TTagged (VTagged [(2, [97]); (1, [98])]) = [2; 1; 1; 98; 2; 1; 97] /\
  vnorm (VTagged [(2, [97]); (1, [98])]) = VTagged [(1, [98]); (2, [97])].
Proof. vm_compute. repeat split. Qed.

Example c11_prepare_examples :
  prepare [0; 1; 2; 5] false (Some (3, 9)) = Chosen 3 5 /\
  prepare [0; 1; 2; 5] false (Some (3, 4)) = ErrNotImplemented /\
  prepare [0; 1; 2; 5] false (Some (0, 4)) = Chosen 2 2 /\
  prepare [0; 1; 2] true None = Chosen 0 0 /\
  prepare [0; 1; 2] false None = ErrIncompatible.
Proof. vm_compute. repeat split. Qed.

Example c11_guard_examples :
  guard 0 2 (only PTransactionalId) = false /\ guard 0 3 (only PTransactionalId) = true /\
  guard 2 0 (only PTimestampSearch) = false /\ guard 2 1 (only PTimestampSearch) = true /\
  guard 1 3 (only PIsolationLevel) = false /\ guard 1 4 (only PIsolationLevel) = true.
Proof. vm_compute. repeat split. Qed.

(* C18 — SCRAM login proves the password and authenticates the server.
   Public statements; the executable model of aiokafka.conn.ScramAuthenticator is
   model/C18_Scram.v, the proofs are in proof/C18_proof.v.

   Every theorem is universally quantified over the hash primitives
     H (SHA-256/512), HMAC, Hi (PBKDF2-HMAC), b64 / unb64 (base64)
   and uses of them only the hypotheses named in its statement:
     hyp_unb64_b64     forall x, wfb x -> unb64 (b64 x) = Some x
     hyp_b64_alphabet  forall x, every byte of b64 x is in [0-9A-Za-z+/=]
     hyp_hmac_len      all HMAC outputs have one length
     hyp_hmac_wfb      HMAC outputs are bytes (0..255)
   NOT claimed: that a party ignorant of the password cannot produce the expected server
   signature — that is the cryptographic strength of HMAC/PBKDF2, outside this model. *)
From Coq Require Import ZArith String List Bool.
From Verif Require Import Imp C18_Scram C18_proof.
Import ListNotations.
Open Scope Z_scope.

(* 1. client-first is a valid RFC 5802 message for (user, nonce): the RFC parser recovers
   exactly the user name and the nonce; un-escaping inverts the escaping; the escaped name
   contains no raw ',' and every '=' in it begins "=2C" or "=3D".  No hash primitive occurs. *)
Theorem c18_first_wellformed : forall user cnonce,
  user <> [] -> cnonce <> [] -> forallb printable cnonce = true ->
  rfc_parse_client_first (client_first user cnonce)
    = Some (client_first_bare user cnonce, user, cnonce)
  /\ unescape (escape_user user) = Some user
  /\ ~ In 44 (escape_user user)
  /\ eq_escaped (escape_user user).
Proof.
  intros user cnonce Hu Hn Hp.
  exact (conj (first_wellformed user cnonce Hu Hn Hp)
        (conj (unescape_escape user) (conj (escape_no_comma user) (escape_eq_escaped user)))).
Qed.
Print Assumptions c18_first_wellformed.

(* 2. against an honest RFC 5802 server that stores StoredKey for the same password
   (server-first = "r=" cnonce snonce ",s=" b64(salt) ",i=" decimal(i)):
   the client answers with  c=biws,r=<cnonce snonce>,p=<b64 proof>  — the combined nonce and
   the channel-binding of "n,," are repeated —, the server's check
   H(proof xor HMAC(StoredKey, AuthMessage)) = StoredKey  succeeds on the AuthMessage the
   server itself assembles from the three messages it saw, and the client then accepts the
   server's  v=b64(HMAC(ServerKey, AuthMessage))  and completes. *)
Theorem c18_honest_server_accepts :
  forall (H : bytes -> bytes) (HMAC : bytes -> bytes -> bytes) (Hi : bytes -> bytes -> Z -> bytes)
         (b64 : bytes -> bytes) (unb64 : bytes -> option bytes)
         user pw cnonce snonce salt i,
  hyp_unb64_b64 b64 unb64 -> hyp_b64_alphabet b64 -> hyp_hmac_len HMAC -> hyp_hmac_wfb HMAC ->
  forallb printable cnonce = true -> forallb printable snonce = true ->
  wfb salt -> 1 <= i <= 2147483647 ->
  let sf := srv_first b64 cnonce snonce salt i in
  let rn := cnonce ++ snonce in
  let bare := client_first_bare user cnonce in
  let auth := auth_message user cnonce sf rn in
  let cfin := client_final rn (b64 (client_proof H HMAC (Hi pw salt i) auth)) in
  strip_prefix s_gs2 (client_first user cnonce) = Some bare /\
  step2 H HMAC Hi b64 unb64 user pw cnonce sf
    = Ok (cfin, expected_server_sig HMAC Hi pw salt i auth) /\
  srv_verify H HMAC unb64 (srv_stored_key H HMAC Hi pw salt i) bare sf rn cfin = true /\
  session H HMAC Hi b64 unb64 user pw cnonce sf (srv_final HMAC Hi b64 pw salt i auth)
    = [Emit (client_first user cnonce); Emit cfin; Complete].
Proof. exact honest_server_accepts. Qed.
Print Assumptions c18_honest_server_accepts.

(* 3. nonce check.  If the server-first message carries no readable nonce, or one that does
   not start with the client's nonce, the generator raises after client-first and emits no
   client-final message.  (No hypothesis on the primitives.) *)
Theorem c18_nonce_check :
  forall H HMAC Hi b64 unb64 user pw cnonce sf sfinal,
  match server_nonce_of sf with
  | Some rn => is_prefix cnonce rn = false
  | None => True
  end ->
  exists e, session H HMAC Hi b64 unb64 user pw cnonce sf sfinal
            = [Emit (client_first user cnonce); Raised e].
Proof.
  intros H HMAC Hi b64 unb64 user pw cnonce sf sfinal Hn. unfold session.
  destruct (step2 H HMAC Hi b64 unb64 user pw cnonce sf) as [r|e] eqn:E2; [exfalso|exists e; reflexivity].
  destruct (step2_ok_nonce _ _ _ _ _ _ _ _ _ _ E2) as (rn & E & Ep). rewrite E in Hn. congruence.
Qed.
Print Assumptions c18_nonce_check.

(* … and conversely a client-final is emitted only when the server nonce is cnonce ++ t *)
Theorem c18_nonce_check_converse :
  forall H HMAC Hi b64 unb64 user pw cnonce sf sfinal m rest,
  session H HMAC Hi b64 unb64 user pw cnonce sf sfinal
    = Emit (client_first user cnonce) :: Emit m :: rest ->
  exists rn t, server_nonce_of sf = Some rn /\ rn = cnonce ++ t.
Proof.
  intros H HMAC Hi b64 unb64 user pw cnonce sf sfinal m rest. unfold session.
  destruct (step2 H HMAC Hi b64 unb64 user pw cnonce sf) as [[cfin sig]|e] eqn:E2; [intros _|discriminate].
  destruct (step2_ok_nonce _ _ _ _ _ _ _ _ _ _ E2) as (rn & E & Ep).
  apply is_prefix_spec in Ep as [t ->]. eauto.
Qed.
Print Assumptions c18_nonce_check_converse.

(* what [is_prefix] in the two statements above says *)
Theorem c18_is_prefix_spec : forall p s, is_prefix p s = true <-> exists t, s = p ++ t.
Proof. exact is_prefix_spec. Qed.
Print Assumptions c18_is_prefix_spec.

(* 4. server authentication.  Whenever the client got as far as sending client-final, the
   login completes IFF the v attribute of server-final decodes to exactly
   HMAC(ServerKey(password, salt, i), AuthMessage) for the salt, iteration count and
   transcript of this very exchange; in every other case the generator raises. *)
Theorem c18_server_auth :
  forall H HMAC Hi b64 unb64 user pw cnonce sf sfinal cfin rest,
  session H HMAC Hi b64 unb64 user pw cnonce sf sfinal
    = Emit (client_first user cnonce) :: Emit cfin :: rest ->
  exists rn stxt salt itxt i attrs,
    parse_attrs sf = Some attrs /\ lookup k_r attrs = Some rn /\
    lookup k_s attrs = Some stxt /\ unb64 stxt = Some salt /\
    lookup k_i attrs = Some itxt /\ py_int itxt = Some i /\
    let expected := expected_server_sig HMAC Hi pw salt i (auth_message user cnonce sf rn) in
    (rest = [Complete] <-> server_sig_of unb64 sfinal = Some expected) /\
    (rest = [Complete] \/ exists e, rest = [Raised e]).
Proof.
  intros H HMAC Hi b64 unb64 user pw cnonce sf sfinal cfin rest. unfold session. intros E.
  destruct (step2 H HMAC Hi b64 unb64 user pw cnonce sf) as [[cfin' sig]|e] eqn:E2; [|discriminate].
  apply step2_ok_inv in E2.
  destruct E2 as (attrs & rn & stxt & salt & itxt & i & Eu & Ea & Er & Ep & Es & Eb & Ei & Ep2 & Hi' & Ec & Esig).
  exists rn, stxt, salt, itxt, i, attrs. repeat (split; [assumption|]).
  cbn zeta. unfold expected_server_sig, server_key, salted_password. rewrite <- Esig.
  inversion E as [[Ecf Er']]. clear E.
  rewrite <- step3_iff. destruct (step3_cases unb64 sig sfinal) as [->|[e ->]].
  - split; [split; reflexivity|left; reflexivity].
  - split; [split; discriminate|right; exists e; reflexivity].
Qed.
Print Assumptions c18_server_auth.

(* for a server-final of the canonical form "v=" b64(x): accepted iff x is, bit for bit,
   the expected signature — any tampered bit aborts *)
Theorem c18_server_auth_bits :
  forall (b64 : bytes -> bytes) (unb64 : bytes -> option bytes) sig x,
  hyp_unb64_b64 b64 unb64 -> hyp_b64_alphabet b64 -> wfb x ->
  (step3 unb64 sig ([118; 61] ++ b64 x) = Ok tt <-> x = sig).
Proof. exact server_final_bits. Qed.
Print Assumptions c18_server_auth_bits.

(* the hypotheses are jointly satisfiable (toy instance in C18_proof.Sat) *)
Example c18_hyps_satisfiable :
  hyp_unb64_b64 Sat.b64 Sat.unb64 /\ hyp_b64_alphabet Sat.b64 /\
  hyp_hmac_len Sat.HMAC /\ hyp_hmac_wfb Sat.HMAC.
Proof. exact (conj Sat.sat_unb64_b64 (conj Sat.sat_b64_alphabet (conj Sat.sat_hmac_len Sat.sat_hmac_wfb))). Qed.

(* escaping order matters: the user "a,b=c" *)
Example c18_escape_example :
  escape_user [97; 44; 98; 61; 99] = [97; 61; 50; 67; 98; 61; 51; 68; 99].
Proof. reflexivity. Qed.
